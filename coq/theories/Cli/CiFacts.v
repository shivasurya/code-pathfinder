(* Facts about Cli/Ci.v: the ci report is computed rule by rule (conservation, isolation of a
   failing rule), the shape of SARIF results, report placement, and the hosted-bundle round trip
   gen-script (produce) -> downloadRuleset (consume) = loadRules on the local directory. *)
From CPF Require Import Base.ListFacts Base.BytesFacts Base.JsonFacts Cli.Ci.
Open Scope bs_scope.

Definition entry_of (g : list node) (text : bytes) : ci_entry :=
  {| e_rule := parse_ci text; e_outcome := process_query (r_query (parse_ci text)) g |}.

Theorem ci_run_conserves rules g :
  ci_run rules g =
  map (fun text => {| e_rule := parse_ci text;
                      e_outcome := process_query (r_query (parse_ci text)) g |}) rules.
Proof. reflexivity. Qed.
Print Assumptions ci_run_conserves.

Theorem ci_run_app a b g : ci_run (a ++ b) g = ci_run a g ++ ci_run b g.
Proof. unfold ci_run. apply map_app. Qed.
Print Assumptions ci_run_app.

Theorem ci_run_length rules g : length (ci_run rules g) = length rules.
Proof. unfold ci_run. apply map_length. Qed.
Print Assumptions ci_run_length.

Theorem ci_isolation rs1 bad rs2 g :
  ci_run (rs1 ++ bad :: rs2) g = ci_run rs1 g ++ ci_run [bad] g ++ ci_run rs2 g.
Proof. change (bad :: rs2) with ([bad] ++ rs2). rewrite !ci_run_app. reflexivity. Qed.
Print Assumptions ci_isolation.

Theorem ci_run_nth rules g i text :
  nth_error rules i = Some text -> nth_error (ci_run rules g) i = Some (entry_of g text).
Proof. intro H. unfold ci_run. rewrite nth_error_map, H. reflexivity. Qed.
Print Assumptions ci_run_nth.

Theorem ci_sarif_conserves rules g :
  ci_sarif rules g =
  flat_map (fun text => sarif_of_entry
              {| e_rule := parse_ci text;
                 e_outcome := process_query (r_query (parse_ci text)) g |}) rules.
Proof.
  unfold ci_sarif, ci_run. induction rules as [|t rules IH]; [reflexivity|].
  cbn [map flat_map]. rewrite IH. reflexivity.
Qed.
Print Assumptions ci_sarif_conserves.

Theorem ci_sarif_app a b g : ci_sarif (a ++ b) g = ci_sarif a g ++ ci_sarif b g.
Proof. unfold ci_sarif. rewrite ci_run_app. apply flat_map_app. Qed.
Print Assumptions ci_sarif_app.

(* a rule without findings (in particular one whose query does not parse) leaves the others' results alone *)
Theorem sarif_bad_rule rs1 bad rs2 g :
  findings (process_query (r_query (parse_ci bad)) g) = [] ->
  ci_sarif (rs1 ++ bad :: rs2) g = ci_sarif (rs1 ++ rs2) g.
Proof.
  intro Hbad. change (bad :: rs2) with ([bad] ++ rs2). rewrite !ci_sarif_app.
  assert (E : ci_sarif [bad] g = []).
  { unfold ci_sarif, ci_run, sarif_of_entry. cbn [map flat_map e_outcome]. rewrite Hbad. reflexivity. }
  rewrite E. reflexivity.
Qed.
Print Assumptions sarif_bad_rule.

Theorem sarif_length e : length (sarif_of_entry e) = length (findings (e_outcome e)).
Proof. unfold sarif_of_entry. apply map_length. Qed.
Print Assumptions sarif_length.

Theorem sarif_locations e :
  map (fun s => (s_file s, s_line s)) (sarif_of_entry e) =
  map (fun n => (n_file n, n_line n)) (findings (e_outcome e)).
Proof. unfold sarif_of_entry. rewrite map_map. reflexivity. Qed.
Print Assumptions sarif_locations.

Theorem sarif_fields e s :
  In s (sarif_of_entry e) ->
  s_rule s = r_id (e_rule e) /\ s_level s = to_lower (r_severity (e_rule e)) /\
  s_message s = r_desc (e_rule e) /\
  exists n, In n (findings (e_outcome e)) /\ s_file s = n_file n /\ s_line s = n_line n.
Proof.
  unfold sarif_of_entry. intro H. apply in_map_iff in H. destruct H as (n & <- & Hn).
  cbn. repeat split. exists n. auto.
Qed.
Print Assumptions sarif_fields.

Theorem report_path_spec ws f :
  report_path true ws f = ws ++ "/" ++ f /\ report_path false ws f = f.
Proof. split; reflexivity. Qed.
Print Assumptions report_path_spec.

Lemma is_cql_suffix n : is_cql n = has_suffix ".cql" n.
Proof. apply eq_true_iff_eq, ext_iff_suffix. Qed.

Definition file_json (e : bytes * bytes) : json :=
  let '(n, c) := e in JObj [("file_name", JStr n); ("content", JStr c)].
Definition content_of (f : json) : list bytes :=
  match f with
  | JObj m => match obj_get "content" m with Some (JStr c) => [c] | _ => [] end
  | _ => []
  end.

Lemma files_wf entries :
  (forall n c, In (n, c) entries -> valid_utf8b n = true /\ valid_utf8b c = true) ->
  forallb wf_json (map file_json entries) = true.
Proof.
  induction entries as [|[n c] es IH]; intro H; [reflexivity|].
  cbn [map forallb]. rewrite IH by (intros n' c' Hin; apply (H n' c'); right; exact Hin).
  destruct (H n c (or_introl eq_refl)) as [Hn Hc].
  cbn [file_json wf_json forallb fst snd]. rewrite Hn, Hc. reflexivity.
Qed.

Lemma contents_of_files entries :
  flat_map content_of (map file_json entries) = map snd entries.
Proof.
  induction entries as [|[n c] es IH]; [reflexivity|].
  cbn [map flat_map snd]. rewrite IH. reflexivity.
Qed.

Lemma bundle_value_eq dirname entries :
  bundle_value dirname entries =
  JObj [("ruleset", JStr dirname);
        ("files", JArr (map file_json (filter (fun '(n, _) => is_cql n) entries)))].
Proof. reflexivity. Qed.

Lemma filter_cql_suffix (entries : list (bytes * bytes)) :
  filter (fun '(n, _) => is_cql n) entries = filter (fun '(n, _) => has_suffix ".cql" n) entries.
Proof. apply filter_ext. intros [n c]. apply is_cql_suffix. Qed.

Theorem bundle_roundtrip : forall dirname entries,
  valid_utf8b dirname = true ->
  (forall n c, In (n, c) entries -> is_cql n = true -> valid_utf8b n = true /\ valid_utf8b c = true) ->
  forall body, produce dirname entries = Some body -> consume body = Some (load_local entries).
Proof.
  intros dirname entries Hd He body Hp. unfold produce in Hp.
  assert (Hb : body = encode_indent (bundle_value dirname entries)).
  { destruct (filter (fun '(n, _) => is_cql n) entries); [discriminate Hp|]. inversion Hp. reflexivity. }
  clear Hp. subst body. unfold consume. rewrite decode_encode_indent.
  - rewrite bundle_value_eq.
    change (obj_get "files" _) with
      (Some (JArr (map file_json (filter (fun '(n, _) => is_cql n) entries)))).
    cbv beta iota. change (fun f : json => match f with JObj m => _ | _ => [] end) with content_of.
    rewrite contents_of_files, filter_cql_suffix. reflexivity.
  - rewrite bundle_value_eq. cbn [wf_json forallb fst snd]. rewrite Hd.
    rewrite files_wf; [reflexivity|].
    intros n c Hin. apply filter_In in Hin. apply (He n c); apply Hin.
Qed.
Print Assumptions bundle_roundtrip.

Theorem produce_none_iff d es :
  produce d es = None <-> (forall n c, In (n, c) es -> is_cql n = false).
Proof.
  unfold produce. split.
  - intros H n c Hin. apply not_true_is_false. intro E.
    assert (Hf : In (n, c) (filter (fun '(n, _) => is_cql n) es)) by (apply filter_In; auto).
    destruct (filter _ es); [exact Hf | discriminate H].
  - intro H. rewrite (filter_const _ false); [reflexivity|]. intros [n c]. apply H.
Qed.
Print Assumptions produce_none_iff.

Corollary produce_empty d : produce d [] = None.
Proof. reflexivity. Qed.

(* two .cql files (the second with quotes, a backslash, '<', a line feed and a non-ASCII character,
   U+00E9) and a decoy that is not a .cql file *)
Definition ex_entries : list (bytes * bytes) :=
  [("a.cql", "FROM method_declaration AS md SELECT md");
   ("b.cql.txt", "FROM decoy AS d SELECT d");
   ("c.cql", "FROM x AS y WHERE y.getName() == ""caf" ++ [xc3; xa9] ++ "\<""" ++ [x0a] ++ "SELECT y")].

Example ex_bundle_hyps :
  forallb (fun e => valid_utf8b (fst e) && valid_utf8b (snd e)) ex_entries = true.
Proof. vm_compute. reflexivity. Qed.

Example ex_bundle :
  match produce "java" ex_entries with
  | Some body => consume body
  | None => None
  end = Some (load_local ex_entries)
  /\ load_local ex_entries = [snd (nth 0 ex_entries ([], [])); snd (nth 2 ex_entries ([], []))].
Proof. split; vm_compute; reflexivity. Qed.
