(* Facts about Cli/Rules.v: the header metadata the ci command extracts, and that the query
   extractors (ci; scan and query --query-file, which share one) return a re-layout of the query as written. *)
From CPF Require Import Base.ListFacts Base.BytesFacts Lang.Lexer Lang.LexerFacts Cli.Rules.
From Coq Require Import PeanoNat.
Open Scope bs_scope.

Lemma is_ws_ascii_space c : is_ws c = true -> ascii_space c = true.
Proof. apply implb_true_iff. destruct c; reflexivity. Qed.

Definition ascii (c : byte) : bool := (code c <? 128)%N.
(* ASCII and not white space: such a byte is a rune of its own that TrimSpace keeps *)
Definition solid (c : byte) : bool := ascii c && negb (ascii_space c).

Definition lacks (c : byte) (s : bytes) : bool := forallb (fun b => negb (beqb b c)) s.

Lemma split_on_lacks_all c a : lacks c a = true -> split_on c a = [a].
Proof.
  induction a as [|x a IH]; intro H; [reflexivity|]. apply andb_prop in H as [Hx Ha].
  apply negb_true_iff in Hx. rewrite split_on_cons_ne, (IH Ha) by exact Hx. reflexivity.
Qed.

Lemma split_on_lacks_app c a b : lacks c a = true ->
  split_on c (a ++ b) = (a ++ hd [] (split_on c b)) :: tl (split_on c b).
Proof. intro H. rewrite split_on_app, split_on_lacks_all by exact H. reflexivity. Qed.

Lemma split_on_lacks c a b : lacks c a = true -> split_on c (a ++ c :: b) = a :: split_on c b.
Proof.
  intro H. rewrite split_on_lacks_app by exact H. cbn [split_on]. rewrite beqb_refl. cbn [hd tl].
  rewrite app_nil_r. reflexivity.
Qed.

Lemma split_on_lines c ls rest : Forall (fun l => lacks c l = true) ls ->
  split_on c (concat (map (fun l => l ++ [c]) ls) ++ rest) = ls ++ split_on c rest.
Proof.
  induction 1 as [|l ls Hl _ IH]; [reflexivity|]. cbn [map concat]. rewrite <- !app_assoc. cbn [app].
  rewrite split_on_lacks, IH by exact Hl. reflexivity.
Qed.

(* keys: non-empty, first byte ASCII and not white space, no space and no line feed inside;
   values: non-empty, no line feed, no white space (in the sense of strings.TrimSpace, Unicode
   included) at either end.  Keys and values are otherwise arbitrary byte strings. *)
Definition key_okb (k : bytes) : bool :=
  match k with c :: _ => solid c | [] => false end && lacks x20 k && lacks nl k.
Definition value_okb (v : bytes) : bool :=
  nonempty v && bytes_eqb (trim_space v) v && lacks nl v.
Definition field_okb (kv : bytes * bytes) : bool := key_okb (fst kv) && value_okb (snd kv).

Lemma field_ok_inv k v : field_okb (k, v) = true ->
  (exists c k', k = c :: k' /\ solid c = true) /\ lacks x20 k = true /\ lacks nl k = true /\
  v <> [] /\ trim_space v = v /\ lacks nl v = true.
Proof.
  unfold field_okb, key_okb, value_okb. cbn [fst snd]. rewrite !andb_true_iff, bytes_eqb_true.
  intros [[[K1 K2] K3] [[V1 V2] V3]].
  destruct k as [|c k']; [discriminate K1|]. destruct v; [discriminate V1|].
  repeat split; eauto. discriminate.
Qed.

(* the trailer [e] is what remains of the line terminator: nothing, or a CR under CRLF.
   TrimSpace leaves "* k v", TrimPrefix " k v", TrimSpace "k v"; the first space splits it *)
Lemma parse_comment_line_header k v e :
  field_okb (k, v) = true -> forallb ascii_space e = true ->
  parse_comment_line (header_line (k, v) ++ e) = (k, v).
Proof.
  intros H He. destruct (field_ok_inv k v H) as ((c & k' & -> & Hc) & Hsp & _ & Hne & Hv & _).
  unfold parse_comment_line, header_line. cbn [fst snd].
  rewrite trim_space_app_ws by exact He.
  change (" * " ++ (c :: k') ++ " " ++ v) with (x20 :: x2a :: (x20 :: c :: k') ++ x20 :: v).
  rewrite trim_space_ws_cons, trimmed_app by (assumption || reflexivity).
  change (trim_prefix "*" (x2a :: (x20 :: c :: k') ++ x20 :: v)) with (x20 :: c :: k' ++ x20 :: v).
  rewrite trim_space_ws_cons, trimmed_app by (assumption || reflexivity).
  rewrite app_comm_cons, split_on_lacks by exact Hsp.
  pose proof (split_on_nonempty x20 v) as N. pose proof (join_split_on x20 v) as J.
  destruct (split_on x20 v) as [|p ps]; [congruence|]. rewrite J. reflexivity.
Qed.

Theorem parse_comment_line_field k v : field_okb (k, v) = true ->
  parse_comment_line (" * " ++ k ++ " " ++ v) = (k, v)
  /\ parse_comment_line (" * " ++ k ++ " " ++ v ++ [x0d]) = (k, v).
Proof.
  intro H. split.
  - rewrite <- (app_nil_r (" * " ++ k ++ " " ++ v)). apply parse_comment_line_header; [exact H | reflexivity].
  - rewrite <- (parse_comment_line_header k v [x0d] H eq_refl). unfold header_line. cbn [fst snd app].
    rewrite <- !app_assoc. reflexivity.
Qed.
Print Assumptions parse_comment_line_field.

Definition cr_ok (e : bytes) : Prop := e = [] \/ e = [x0d].
Definition eol_ok (eol : bytes) : Prop := eol = [nl] \/ eol = [x0d; nl].

Lemma eol_ok_inv eol : eol_ok eol -> exists e, cr_ok e /\ eol = e ++ [nl].
Proof. intros [-> | ->]; [exists [] | exists [x0d]]; (split; [unfold cr_ok; auto | reflexivity]). Qed.

Definition field_nl_okb (kv : bytes * bytes) : bool := lacks nl (fst kv) && lacks nl (snd kv).

Lemma fields_ok_nl fields : forallb field_okb fields = true -> forallb field_nl_okb fields = true.
Proof.
  rewrite !forallb_forall. intros H [k v] Hin. destruct (field_ok_inv k v (H _ Hin)) as (_ & _ & Hk & _ & _ & Hv).
  unfold field_nl_okb. cbn [fst snd]. rewrite Hk, Hv. reflexivity.
Qed.

(* the lines before the query, without their line feeds *)
Definition rule_header (e : bytes) (fields : list (bytes * bytes)) : list bytes :=
  ("/**" ++ e) :: map (fun kv => header_line kv ++ e) fields ++ [" */" ++ e; e].

Lemma star_line l y : l = " *" ++ y ->
  has_prefix "/*" (trim_space l) = false /\ starts_query l = false.
Proof.
  intros ->. unfold starts_query. cbn [app].
  rewrite trim_space_ws_cons, trim_space_nonspace by reflexivity. split; reflexivity.
Qed.

Lemma rule_header_lines e fields : cr_ok e -> forallb field_nl_okb fields = true ->
  Forall (fun l => lacks nl l = true) (rule_header e fields)
  /\ Forall (fun l => starts_query l = false) (rule_header e fields).
Proof.
  intros He Hf. apply Forall_and_inv.
  assert (E : Forall (fun l => lacks nl l = true /\ starts_query l = false) ["/**" ++ e; " */" ++ e; e])
    by (destruct He as [-> | ->]; repeat constructor).
  inversion E as [|? ? E1 E']; subst. apply Forall_cons; [exact E1|]. apply Forall_app. split; [|exact E'].
  apply Forall_map, Forall_forall. intros kv Hin. split; [|eapply star_line; reflexivity].
  rewrite forallb_forall in Hf. specialize (Hf kv Hin). apply andb_prop in Hf as [Hk Hv].
  unfold header_line, lacks in *. rewrite !forallb_app, Hk, Hv. destruct He as [-> | ->]; reflexivity.
Qed.

Lemma render_rule_lines e fields qt : cr_ok e -> forallb field_nl_okb fields = true ->
  split_on nl (render_rule (e ++ [nl]) fields qt) = rule_header e fields ++ split_on nl qt.
Proof.
  intros He Hf. rewrite <- split_on_lines by apply (rule_header_lines e fields He Hf).
  f_equal. unfold render_rule, rule_header. cbn [map concat]. rewrite map_app, concat_app, map_map. cbn [map concat].
  rewrite <- !app_assoc. do 5 f_equal. apply map_ext. intro kv. apply app_assoc.
Qed.

Lemma starts_query_not_comment l : starts_query l = true -> has_prefix "/*" (trim_space l) = false.
Proof.
  unfold starts_query. destruct (trim_space l) as [|c t]; [reflexivity|].
  cbn [has_prefix]. destruct (beqb x2f c) eqn:E; [|reflexivity].
  apply beqb_true in E. subst c. intro H. discriminate H.
Qed.

Lemma set_field_spec r k v :
  set_field r k v =
  {| r_id := if bytes_eqb k "@id" then v else r_id r;
     r_desc := if bytes_eqb k "@description" then v else r_desc r;
     r_impact := if bytes_eqb k "@security-severity" then v else r_impact r;
     r_severity := if bytes_eqb k "@problem.severity" then v else r_severity r;
     r_provider := if bytes_eqb k "@ruleprovider" then v else r_provider r;
     r_query := r_query r |}.
Proof.
  unfold set_field.
  repeat match goal with
         | |- context [if bytes_eqb k ?s then _ else _] =>
             let E := fresh "E" in
             destruct (bytes_eqb k s) eqn:E; [apply bytes_eqb_true in E; subst k; reflexivity|]
         end.
  destruct r; reflexivity.
Qed.

Definition with_fields (fields : list (bytes * bytes)) (r : rule) : rule :=
  {| r_id := last_value "@id" fields (r_id r);
     r_desc := last_value "@description" fields (r_desc r);
     r_impact := last_value "@security-severity" fields (r_impact r);
     r_severity := last_value "@problem.severity" fields (r_severity r);
     r_provider := last_value "@ruleprovider" fields (r_provider r);
     r_query := r_query r |}.

Lemma ci_lines_fields e fields : forallb ascii_space e = true -> forallb field_okb fields = true ->
  forall rest r,
  parse_ci_lines (map (fun kv => header_line kv ++ e) fields ++ rest) false true [] r
  = parse_ci_lines rest false true [] (with_fields fields r).
Proof.
  intros He. induction fields as [|[k v] fs IH]; intros H rest r; [destruct r; reflexivity|].
  apply andb_prop in H as [H1 H2]. cbn [map app parse_ci_lines].
  destruct (star_line (header_line (k, v) ++ e) _ eq_refl) as [-> ->].
  rewrite parse_comment_line_header, (IH H2), set_field_spec by assumption. reflexivity.
Qed.

Lemma set_field_nil r : set_field r [] [] = r.
Proof. destruct r; reflexivity. Qed.

(* from the start of the file to the first line of the query *)
Lemma ci_lines_header e fields rest : cr_ok e -> forallb field_okb fields = true ->
  parse_ci_lines (rule_header e fields ++ rest) false false [] empty_rule
  = parse_ci_lines rest false true [] (with_fields fields empty_rule).
Proof.
  intros He Hf.
  assert (E : has_prefix "/*" (trim_space ("/**" ++ e)) = true /\ forallb ascii_space e = true
              /\ parse_comment_line (" */" ++ e) = ([], []) /\ has_prefix "/*" (trim_space e) = false
              /\ starts_query e = false /\ parse_comment_line e = ([], []))
    by (destruct He as [-> | ->]; repeat split).
  destruct E as (E0 & Hsp & E1 & E2 & E3 & E4).
  destruct (star_line (" */" ++ e) _ eq_refl) as [S1 S2].
  unfold rule_header. cbn [app parse_ci_lines] in *. rewrite E0, <- app_assoc, ci_lines_fields by assumption.
  cbn [app parse_ci_lines]. rewrite S1, S2.
  rewrite E1, E2, E3, E4, !set_field_nil. reflexivity.
Qed.

Lemma ci_lines_find_fst : forall lines c q r, fst (parse_ci_lines lines true c q r) = r.
Proof.
  induction lines as [|l ls IH]; intros c q r; [reflexivity|]. cbn [parse_ci_lines].
  destruct (has_prefix "/*" (trim_space l)); [apply IH|]. destruct (starts_query l); apply IH.
Qed.

Theorem parse_ci_metadata eol fields qt :
  eol_ok eol -> forallb field_okb fields = true ->
  starts_query (hd [] (split_on nl qt)) = true ->
  let r := parse_ci (render_rule eol fields qt) in
  r_id r = last_value "@id" fields []
  /\ r_desc r = last_value "@description" fields []
  /\ r_severity r = last_value "@problem.severity" fields []
  /\ r_impact r = last_value "@security-severity" fields []
  /\ r_provider r = last_value "@ruleprovider" fields [].
Proof.
  intros Heol Hf Hq. destruct (eol_ok_inv _ Heol) as (e & He & ->).
  unfold parse_ci. rewrite render_rule_lines, ci_lines_header by (assumption || apply fields_ok_nl, Hf).
  (* the first query line switches to collecting the query, which leaves the rule alone *)
  destruct (split_on nl qt) as [|l0 ls]; [discriminate Hq|]. cbn [hd] in Hq.
  cbn [parse_ci_lines]. rewrite (starts_query_not_comment _ Hq), Hq.
  pose proof (ci_lines_find_fst ls true ([] ++ l0 ++ " ") (with_fields fields empty_rule)) as F.
  destruct (parse_ci_lines ls true true _ _) as [r q]. cbn [fst] in F. subst r.
  repeat split; reflexivity.
Qed.
Print Assumptions parse_ci_metadata.

Lemma extract_lines_query : forall ls q,
  extract_lines ls true q = q ++ concat (map (fun l => l ++ " ") ls).
Proof.
  induction ls as [|l ls IH]; intro q; [cbn; rewrite app_nil_r; reflexivity|].
  cbn [extract_lines map concat]. destruct (starts_query l); rewrite IH, <- !app_assoc; reflexivity.
Qed.

Lemma extract_lines_from pre ls :
  Forall (fun l => starts_query l = false) pre -> starts_query (hd [] ls) = true ->
  extract_lines (pre ++ ls) false [] = concat (map (fun l => l ++ " ") ls).
Proof.
  intros Hpre Hq. induction Hpre as [|l pre Hl _ IH]; [|cbn [app extract_lines]; rewrite Hl; exact IH].
  destruct ls as [|l0 ls]; [discriminate Hq|]. cbn [hd app extract_lines] in *. rewrite Hq.
  apply extract_lines_query.
Qed.

(* ci: the query is what the file extractor finds in the lines that do not open a comment *)
Lemma ci_lines_snd : forall lines f c q r,
  snd (parse_ci_lines lines f c q r)
  = extract_lines (filter (fun l => negb (has_prefix "/*" (trim_space l))) lines) f q.
Proof.
  induction lines as [|l ls IH]; intros f c q r; [reflexivity|]. cbn [parse_ci_lines filter].
  destruct (has_prefix "/*" (trim_space l)); cbn [negb extract_lines]; [apply IH|].
  destruct (starts_query l); [apply IH|]. destruct f; [apply IH|].
  destruct c; [destruct (parse_comment_line l)|]; apply IH.
Qed.

(* no line of the query text opens a comment: ParseQuery silently drops such a line *)
Definition no_comment_open (qt : bytes) : bool :=
  forallb (fun l => negb (has_prefix "/*" (trim_space l))) (split_on nl qt).

Lemma no_comment_open_filter qt : no_comment_open qt = true ->
  filter (fun l => negb (has_prefix "/*" (trim_space l))) (split_on nl qt) = split_on nl qt.
Proof. intro H. now apply (filter_decided _ _ true _ H). Qed.

Lemma drop_cr_snoc a c : drop_cr (a ++ [c]) = if beqb c x0d then a else a ++ [c].
Proof.
  unfold drop_cr, trim_suffix, has_suffix. rewrite rev_unit. cbn [rev app has_prefix].
  rewrite andb_true_r, beqb_sym. destruct (beqb c x0d); [|reflexivity]. rewrite app_length, Nat.add_sub, firstn_app, Nat.sub_diag, firstn_all.
  apply app_nil_r.
Qed.

Lemma drop_cr_cons x h : beqb x x0d = false \/ h <> [] -> drop_cr (x :: h) = x :: drop_cr h.
Proof.
  intro H. destruct h as [|y h'].
  - destruct H as [H | H]; [|congruence]. change (drop_cr ([] ++ [x]) = [x]). rewrite drop_cr_snoc, H. reflexivity.
  - destruct (exists_last (l := y :: h') ltac:(discriminate)) as (h0 & c & ->).
    rewrite app_comm_cons, !drop_cr_snoc. destruct (beqb c x0d); reflexivity.
Qed.

Lemma trim_space_drop_cr l : trim_space (drop_cr l) = trim_space l.
Proof.
  destruct l as [|y l'] using rev_ind; [reflexivity|]. rewrite drop_cr_snoc.
  destruct (beqb y x0d) eqn:E; [|reflexivity]. apply beqb_true in E as ->.
  symmetry. apply trim_space_app_ws. reflexivity.
Qed.

Lemma starts_query_drop_cr l : starts_query (drop_cr l) = starts_query l.
Proof. unfold starts_query. rewrite trim_space_drop_cr. reflexivity. Qed.

(* What both extractors make of the query text: its lines joined by spaces, that is, every line
   feed replaced by a space.  The scanner ([cr]) also drops the CR before a line feed, as
   bufio.ScanLines does, and a CR at the very end unless [cont] (the text goes on with something
   that is not a line feed). *)
Fixpoint joined (cr cont : bool) (s : bytes) : bytes :=
  match s with
  | [] => []
  | x :: s' =>
      if beqb x x0d && cr && match s' with [] => negb cont | y :: _ => beqb y nl end then joined cr cont s'
      else (if beqb x nl then x20 else x) :: joined cr cont s'
  end.

Lemma join_lines (cr : bool) s :
  concat (map (fun l => (if cr then drop_cr l else l) ++ " ") (split_on nl s)) = joined cr false s ++ " ".
Proof.
  induction s as [|x s IH]; [destruct cr; reflexivity|]. cbn [joined negb].
  destruct (beqb x nl) eqn:En.
  - cbn [split_on]. rewrite En. apply beqb_true in En as ->. cbn [map concat]. rewrite IH.
    destruct cr; reflexivity.
  - rewrite split_on_cons_ne by exact En.
    (* a CR before [s] ends its line exactly when the first line [p] of [s] is empty *)
    pose proof (split_on_nonempty nl s) as N. pose proof (split_on_hd_nil nl s) as Ep.
    destruct (split_on nl s) as [|p ps]; [congruence|]. cbn [hd tl map concat] in *.
    destruct (beqb x x0d && cr && _) eqn:T.
    + apply andb_prop in T as [T Tp]. apply andb_prop in T as [Ex ->]. apply beqb_true in Ex as ->.
      apply Ep in Tp as ->. exact IH.
    + cbn [app]. rewrite <- IH, <- !app_assoc. destruct cr; [|reflexivity]. rewrite drop_cr_cons; [reflexivity|].
      rewrite andb_true_r in T. apply andb_false_iff in T as [T | T]; [left; exact T | right].
      intro E. apply Ep in E. congruence.
Qed.

Lemma parse_ci_query eol fields qt :
  eol_ok eol -> forallb field_nl_okb fields = true ->
  starts_query (hd [] (split_on nl qt)) = true -> no_comment_open qt = true ->
  r_query (parse_ci (render_rule eol fields qt)) = trim_space (joined false false qt ++ " ").
Proof.
  intros Heol Hf Hq Hno. destruct (eol_ok_inv _ Heol) as (e & He & ->).
  destruct (rule_header_lines e fields He Hf) as [_ Hh]. unfold parse_ci. destruct (parse_ci_lines _ _ _ _ _) as [r q] eqn:E. apply (f_equal snd) in E.
  rewrite ci_lines_snd, render_rule_lines, filter_app, no_comment_open_filter in E by assumption.
  rewrite extract_lines_from in E by (exact Hq || exact (incl_Forall (incl_filter _ _) Hh)).
  cbn [r_query snd] in *. rewrite <- E. f_equal. exact (join_lines false qt).
Qed.

Lemma extract_lines_snoc_nil : forall a f q,
  exists pad, forallb ascii_space pad = true /\ extract_lines (a ++ [[]]) f q = extract_lines a f q ++ pad.
Proof.
  induction a as [|l a IH]; intros f q.
  - cbn [app extract_lines]. change (starts_query []) with false. cbv iota.
    destruct f; [exists " " | exists []]; (split; [reflexivity|]); [reflexivity | symmetry; apply app_nil_r].
  - cbn [app extract_lines]. destruct (starts_query l); [apply IH|]. destruct f; apply IH.
Qed.

(* the scanner's dropping an empty last line makes no difference *)
Lemma extract_file_eq text :
  extract_file text = trim_space (extract_lines (map drop_cr (split_on nl text)) false []).
Proof.
  unfold extract_file, scan_lines.
  destruct (rev (split_on nl text)) as [|[|] r] eqn:E; try reflexivity.
  apply (f_equal (@rev _)) in E. rewrite rev_involutive in E. cbn [rev] in E. rewrite E, map_app.
  destruct (extract_lines_snoc_nil (map drop_cr (rev r)) false []) as (pad & Hp & Ep).
  symmetry. etransitivity; [apply f_equal; exact Ep | apply trim_space_app_ws, Hp].
Qed.

Lemma extract_file_query eol fields qt :
  eol_ok eol -> forallb field_nl_okb fields = true ->
  starts_query (hd [] (split_on nl qt)) = true ->
  extract_file (render_rule eol fields qt) = trim_space (joined true false qt ++ " ").
Proof.
  intros Heol Hf Hq. destruct (eol_ok_inv _ Heol) as (e & He & ->).
  rewrite extract_file_eq, render_rule_lines, map_app by assumption. rewrite extract_lines_from, map_map.
  - f_equal. exact (join_lines true qt).
  - apply Forall_map. eapply Forall_impl; [|apply (rule_header_lines e fields He Hf)].
    intros l Hl. rewrite starts_query_drop_cr. exact Hl.
  - destruct (split_on nl qt); [discriminate Hq|]. cbn [map hd] in *. rewrite starts_query_drop_cr. exact Hq.
Qed.

Lemma joined_app_cont cr cont a y b : beqb y nl = false ->
  joined cr cont (a ++ y :: b) = joined cr true a ++ joined cr cont (y :: b).
Proof.
  intro Hy. remember (y :: b) as b' eqn:Eb. induction a as [|x a IH]; [reflexivity|].
  cbn [app joined]. rewrite IH. destruct a as [|z a']; cbn [app negb]; [|destruct (beqb x x0d && cr && beqb z nl); reflexivity].
  subst b'. rewrite Hy, !andb_false_r. reflexivity.
Qed.

Lemma joined_lacks cr cont t rest : lacks nl t = true -> lacks x0d t = true ->
  joined cr cont (t ++ rest) = t ++ joined cr cont rest.
Proof.
  induction t as [|x t IH]; intros H1 H2; [reflexivity|].
  apply andb_prop in H1 as [Hx1 H1]. apply andb_prop in H2 as [Hx2 H2]. apply negb_true_iff in Hx1, Hx2.
  cbn [app joined]. rewrite Hx1, Hx2, (IH H1 H2). reflexivity.
Qed.

(* the bytes of numbers and identifiers *)
Definition word_char (c : byte) : bool := is_id_char c || is_dot c.

Lemma word_char_solid c : word_char c = true -> solid c = true.
Proof. apply implb_true_iff. destruct c; reflexivity. Qed.

Lemma tok_ends t : tok_wfb t = true ->
  exists c r, render_tok t = c :: r /\ solid c = true /\ solid (last (render_tok t) x20) = true
              /\ (c = x2f -> t = TSlash) /\ (c = x2a -> t = TStar).
Proof.
  (* numbers and identifiers: neither '/' nor '*' is among their bytes *)
  assert (W : forall s (P Q : Prop), s <> [] -> forallb word_char s = true ->
    exists c r, s = c :: r /\ solid c = true /\ solid (last s x20) = true /\ (c = x2f -> P) /\ (c = x2a -> Q)).
  { intros [|c r] P Q Hne Hs; [congruence|]. exists c, r.
    pose proof (last_forallb _ _ x20 Hne Hs) as Hl. apply andb_prop in Hs as [Hc _].
    repeat split; try (apply word_char_solid; assumption); intros ->; discriminate Hc. }
  assert (D : forall c, is_id_char c = true -> word_char c = true) by (intros c H; unfold word_char; rewrite H; reflexivity).
  intro Hwf. apply tok_wfb_inv in Hwf. destruct t; cbn [render_tok token_text];
    try (eexists _, _; repeat split; try reflexivity; intro E; (reflexivity || discriminate E)).
  - destruct Hwf as (b & -> & Hb). destruct (str_body_last _ Hb) as [Hne Hl]. exists x22, b.
    rewrite (last_app [x22] b x20 Hne : last (x22 :: b) x20 = _), Hl. repeat split; intro E; discriminate E.
  - destruct (number_shape _ Hwf) as (d1 & Hne & Hd1 & Hs).
    assert (Dg : forall d, forallb is_digit d = true -> forallb word_char d = true)
      by (intro d; apply forallb_imp; intros c H; apply D, digit_idchar, H).
    destruct Hs as [-> | (c & d2 & -> & Hc & _ & Hd2)]; (apply W; [destruct d1; [congruence | discriminate]|]).
    + exact (Dg _ Hd1).
    + rewrite forallb_app, (Dg _ Hd1). cbn [forallb]. unfold word_char at 1. rewrite Hc, orb_true_r. exact (Dg _ Hd2).
  - destruct Hwf as (c & w & -> & Hc & Hw & _). apply W; [discriminate|]. cbn [forallb].
    rewrite (D _ (idstart_idchar _ Hc)), (forallb_imp _ _ _ D Hw). reflexivity.
Qed.

(* no token text contains a line feed or a carriage return (no multi-line string literal) *)
Definition single_line_toks (toks : list token) : bool :=
  forallb (fun t => lacks nl (render_tok t) && lacks x0d (render_tok t)) toks.

Lemma single_line_inv t toks : single_line_toks (t :: toks) = true ->
  lacks nl (render_tok t) = true /\ lacks x0d (render_tok t) = true /\ single_line_toks toks = true.
Proof. intro H. apply andb_prop in H as [H H2]. apply andb_prop in H. tauto. Qed.

Lemma joined_render cr : forall toks lay0 ll, forallb tok_wfb toks = true -> single_line_toks toks = true ->
  length lay0 = length toks ->
  joined cr false (render toks (lay0 ++ [ll])) = render toks (map (joined cr true) lay0 ++ [joined cr false ll]).
Proof.
  induction toks as [|t toks IH]; intros [|l lay0] ll Hwf Hsl Hlen; try discriminate Hlen.
  - cbn [app map render]. rewrite !app_nil_r. reflexivity.
  - apply andb_prop in Hwf as [Ht Hwf]. destruct (single_line_inv _ _ Hsl) as (H1 & H2 & H3).
    injection Hlen as Hlen. cbn [app map render].
    (* a token starts with a byte that is not a line feed, so a CR before it stays *)
    destruct (tok_ends _ Ht) as (c & r & Ec & Hc & _).
    assert (Hcn : beqb c nl = false) by (destruct (beqb c nl) eqn:E; [apply beqb_true in E as ->; discriminate Hc | reflexivity]).
    rewrite Ec at 1. cbn [app]. rewrite joined_app_cont, app_comm_cons, <- Ec, joined_lacks, IH by assumption.
    reflexivity.
Qed.

Lemma all_ws_joined cr cont l : all_ws l = true -> all_ws (joined cr cont l) = true.
Proof.
  unfold all_ws. induction l as [|x l IH]; [reflexivity|]. cbn [forallb joined]. intro H.
  apply andb_prop in H as [Hx Hl]. destruct (beqb x x0d && cr && _); [exact (IH Hl)|].
  cbn [forallb]. rewrite (IH Hl). destruct (beqb x nl); [reflexivity | rewrite Hx; reflexivity].
Qed.

Lemma nonempty_joined cr l : nonempty (joined cr true l) = nonempty l.
Proof.
  destruct l as [|x [|y l]]; cbn [joined negb]; [reflexivity | rewrite andb_false_r; reflexivity|].
  destruct (beqb x x0d && cr && beqb y nl) eqn:E; [|reflexivity].
  apply andb_prop in E as [_ E]. apply beqb_true in E as ->. reflexivity.
Qed.

Lemma render_last_solid : forall toks lay0, toks <> [] -> forallb tok_wfb toks = true ->
  length lay0 = length toks -> solid (last (render toks (lay0 ++ [[]])) x20) = true.
Proof.
  induction toks as [|t toks IH]; intros [|l lay0] Hne Hwf Hlen; try congruence; try discriminate Hlen.
  apply andb_prop in Hwf as [Ht Hwf]. injection Hlen as Hlen. cbn [app render].
  destruct (tok_ends t Ht) as (c & r & Ec & _ & Hl & _).
  destruct toks as [|t2 toks].
  - destruct lay0; [|discriminate Hlen]. cbn [app render]. rewrite app_nil_r, last_app by (rewrite Ec; discriminate).
    exact Hl.
  - specialize (IH lay0 ltac:(discriminate) Hwf Hlen). rewrite app_assoc, last_app; [exact IH|].
    intro E. rewrite E in IH. discriminate IH.
Qed.

Definition starts_with_from (toks : list token) : bool :=
  match toks with TFrom :: _ | TPredicate :: _ => true | _ => false end.
Definition first_empty (lay : list bytes) : bool :=
  match lay with [] :: _ => true | _ => false end.

Lemma first_line_starts toks lay : starts_with_from toks = true -> first_empty lay = true ->
  starts_query (hd [] (split_on nl (render toks lay))) = true.
Proof.
  intros Hf Hl. destruct lay as [|[|] lay']; try discriminate Hl. unfold starts_query.
  destruct toks as [|t0 toks']; [discriminate Hf|]. cbn [render app].
  destruct t0; try discriminate Hf; cbn [render_tok token_text];
    rewrite split_on_lacks_app by reflexivity; cbn [hd app];
    rewrite trim_space_nonspace, !trim_right_nonspace by reflexivity; reflexivity.
Qed.

Lemma render_trimmed toks lay0 :
  forallb tok_wfb toks = true -> length ([] :: lay0) = length toks ->
  trim_space (render toks (([] :: lay0) ++ [[]])) = render toks (([] :: lay0) ++ [[]]).
Proof.
  intros Hwf Hlen. destruct toks as [|t toks]; [discriminate Hlen|].
  apply trimmed_ends; [|apply render_last_solid; [discriminate | exact Hwf | exact Hlen]].
  apply andb_prop in Hwf as [Ht _]. destruct (tok_ends t Ht) as (c & r & Ec & Hc & _).
  cbn [app render]. rewrite Ec. exact Hc.
Qed.

Section SameTokens.
Variables (eol : bytes) (fields : list (bytes * bytes)) (toks : list token) (lay : list bytes).
Hypotheses (Heol : eol_ok eol) (Hf : forallb field_nl_okb fields = true)
  (Hwf : forallb tok_wfb toks = true) (Hsl : single_line_toks toks = true)
  (Hfrom : starts_with_from toks = true) (Hlast : is_tin (last toks TFrom) = false)
  (Hfirst : first_empty lay = true) (Hsep : separable toks lay = true).

(* [joined] acts on a rendering through its layout, keeps white space white and empty elements
   empty; what it leaves of the last element goes, with the space appended, by TrimSpace *)
Lemma joined_tokens cr : lex_query (trim_space (joined cr false (render toks lay) ++ " ")) = Some toks.
Proof.
  destruct (sep_from_snoc _ _ _ Hsep) as (lay0 & ll & -> & Hlen & Hll).
  destruct lay0 as [|[|] lay0]; [destruct toks; [discriminate Hfrom | discriminate Hlen] | | discriminate Hfirst].
  assert (Hlen' : length ([] :: map (joined cr true) lay0) = length toks) by (cbn [length]; rewrite map_length; exact Hlen).
  rewrite joined_render by assumption. cbn [map joined].
  rewrite render_snoc, <- app_assoc by exact Hlen'. rewrite trim_space_app_ws.
  - rewrite render_trimmed by assumption.
    apply (relayout_lex toks ([] :: lay0) ll (joined cr true) Hwf Hsep Hlen Hlast (all_ws_joined cr true) (nonempty_joined cr)).
  - rewrite forallb_app, andb_true_r. apply (forallb_imp _ _ _ is_ws_ascii_space), all_ws_joined, Hll.
Qed.

Theorem ci_query_tokens : no_comment_open (render toks lay) = true ->
  lex_query (r_query (parse_ci (render_rule eol fields (render toks lay)))) = Some toks.
Proof.
  intro Hno. rewrite parse_ci_query by (assumption || apply first_line_starts; assumption).
  apply joined_tokens.
Qed.

Theorem extract_query_tokens :
  lex_query (extract_file (render_rule eol fields (render toks lay))) = Some toks.
Proof.
  rewrite extract_file_query by (assumption || apply first_line_starts; assumption). apply joined_tokens.
Qed.

(* the three commands see the same token sequence, and it is the one written in the file *)
Theorem same_tokens : no_comment_open (render toks lay) = true ->
  let text := render_rule eol fields (render toks lay) in
  lex_query (r_query (parse_ci text)) = Some toks
  /\ lex_query (extract_file text) = Some toks
  /\ lex_query (render toks lay) = Some toks.
Proof.
  intro Hno. repeat split; [apply ci_query_tokens, Hno | apply extract_query_tokens | apply lex_render; assumption].
Qed.
End SameTokens.
Print Assumptions ci_query_tokens.
Print Assumptions extract_query_tokens.
Print Assumptions same_tokens.

(* a line opens a comment only if the token '/' is directly followed by the token '*' *)
Definition is_slash (t : token) : bool := match t with TSlash => true | _ => false end.
Definition is_star (t : token) : bool := match t with TStar => true | _ => false end.

Fixpoint no_slash_star (toks : list token) (lay : list bytes) : bool :=
  match toks, lay with
  | t1 :: ((t2 :: _) as toks'), _ :: ((l2 :: _) as lay') =>
      negb (is_slash t1 && is_star t2 && negb (nonempty l2)) && no_slash_star toks' lay'
  | _, _ => true
  end.

(* white space before a line's first token is trimmed away, and a line of white space only
   opens nothing *)
Lemma nco_ws l R : all_ws l = true -> no_comment_open (l ++ R) = no_comment_open R.
Proof.
  induction l as [|c l IH]; intro H; [reflexivity|]. apply andb_prop in H as [Hc Hl].
  rewrite <- (IH Hl). cbn [app]. generalize (l ++ R) as S. intro S.
  unfold no_comment_open. destruct (beqb c nl) eqn:E.
  - cbn [split_on]. rewrite E. reflexivity.
  - rewrite split_on_cons_ne by exact E. pose proof (split_on_nonempty nl S) as N.
    destruct (split_on nl S) as [|h t]; [congruence|]. cbn [hd tl forallb].
    rewrite trim_space_ws_cons by apply is_ws_ascii_space, Hc. reflexivity.
Qed.

Lemma nco_tok c r R : solid c = true -> lacks nl (c :: r) = true ->
  (c = x2f -> r = [] /\ hd x20 R <> x2a) ->
  no_comment_open R = true -> no_comment_open (c :: r ++ R) = true.
Proof.
  intros Hc Hnl Hs HR. unfold no_comment_open in *.
  rewrite app_comm_cons, split_on_lacks_app by exact Hnl.
  pose proof (split_on_nonempty nl R) as N. pose proof (join_split_on nl R) as J.
  destruct (split_on nl R) as [|h t]; [congruence|]. cbn [hd tl forallb] in *.
  apply andb_prop in HR as [_ ->]. rewrite andb_true_r. apply negb_true_iff.
  rewrite <- app_comm_cons, trim_space_nonspace by exact Hc. cbn [has_prefix].
  destruct (beqb x2f c) eqn:E; [|reflexivity]. apply beqb_true in E as <-.
  destruct (Hs eq_refl) as [-> Hstar]. destruct (trim_right_prefix h) as (z & Eh). cbn [app] in *.
  destruct (trim_right h) as [|d y]; [reflexivity|]. cbn [has_prefix andb].
  destruct (beqb x2a d) eqn:E2; [|reflexivity]. apply beqb_true in E2 as <-.
  destruct Hstar. rewrite <- J, Eh. destruct t; reflexivity.
Qed.

Lemma no_slash_star_tl t toks l lay :
  no_slash_star (t :: toks) (l :: lay) = true -> no_slash_star toks lay = true.
Proof.
  destruct toks as [|t2 toks]; [reflexivity|]. destruct lay as [|l2 lay]; [destruct toks; reflexivity|].
  cbn [no_slash_star]. intro H. apply andb_prop in H. apply H.
Qed.

(* what follows a '/' does not start with a '*': white space, the end, or another token *)
Lemma slash_next toks lay l0 :
  forallb tok_wfb toks = true -> forallb all_ws lay = true ->
  no_slash_star (TSlash :: toks) (l0 :: lay) = true -> hd x20 (render toks lay) <> x2a.
Proof.
  intros Hwf Hws Hns E. destruct lay as [|[|c l] lay]; [discriminate E | | cbn in E; subst c; discriminate Hws].
  destruct toks as [|t toks]; [discriminate E|]. apply andb_prop in Hwf as [Ht _].
  destruct (tok_ends t Ht) as (c & r & Ec & _ & _ & _ & Hstar). cbn [render app] in E. rewrite Ec in E.
  rewrite (Hstar E) in Hns. discriminate Hns.
Qed.

Lemma nco_render : forall lay toks,
  forallb tok_wfb toks = true -> single_line_toks toks = true -> forallb all_ws lay = true ->
  no_slash_star toks lay = true -> no_comment_open (render toks lay) = true.
Proof.
  induction lay as [|l lay IH]; intros toks Hwf Hsl Hws Hns; [reflexivity|].
  apply andb_prop in Hws as [Hl Hws]. cbn [render]. rewrite nco_ws by exact Hl.
  destruct toks as [|t toks]; [reflexivity|]. apply andb_prop in Hwf as [Ht Hwf].
  destruct (single_line_inv _ _ Hsl) as (Hnl & _ & Hsl').
  destruct (tok_ends t Ht) as (c & r & Ec & Hc & _ & Hslash & _). rewrite Ec in *.
  apply nco_tok; [exact Hc | exact Hnl | | exact (IH _ Hwf Hsl' Hws (no_slash_star_tl _ _ _ _ Hns))].
  intros ->. rewrite (Hslash eq_refl) in *. injection Ec as <-.
  split; [reflexivity | exact (slash_next _ _ _ Hwf Hws Hns)].
Qed.

Theorem no_comment_open_toks toks lay :
  forallb tok_wfb toks = true -> single_line_toks toks = true -> separable toks lay = true ->
  no_slash_star toks lay = true -> no_comment_open (render toks lay) = true.
Proof. intros Hwf Hsl Hsep. apply nco_render; [exact Hwf | exact Hsl | exact (sep_from_ws _ _ _ Hsep)]. Qed.
Print Assumptions no_comment_open_toks.

(* [same_tokens] with token-level hypotheses only *)
Theorem same_tokens_toks eol fields toks lay :
  eol_ok eol -> forallb field_nl_okb fields = true ->
  forallb tok_wfb toks = true -> single_line_toks toks = true ->
  starts_with_from toks = true -> is_tin (last toks TFrom) = false ->
  first_empty lay = true -> separable toks lay = true -> no_slash_star toks lay = true ->
  let text := render_rule eol fields (render toks lay) in
  lex_query (r_query (parse_ci text)) = Some toks
  /\ lex_query (extract_file text) = Some toks
  /\ lex_query (render toks lay) = Some toks.
Proof.
  intros. apply same_tokens; try assumption. apply no_comment_open_toks; assumption.
Qed.
Print Assumptions same_tokens_toks.

Definition crlf : bytes := [x0d; nl].

(* a rule file with CRLF line endings, the severity before the id, an unknown key, and a query
   wrapped over three indented lines *)
Definition ex_fields : list (bytes * bytes) :=
  [("@problem.severity", "HIGH"); ("@name", "Demo rule"); ("@id", "java/demo id");
   ("@description", "finds  things")].
Definition ex_rtoks : list token :=
  [TFrom; TIdent "method_declaration"; TAs; TIdent "md"; TWhere; TIdent "md"; TDot;
   TIdent "getName"; TLParen; TRParen; TEqEq; TString """a  b"""; TSelect; TIdent "md"].
Definition ex_rlay : list bytes :=
  [""; " "; " "; " "; crlf ++ "  "; " "; ""; ""; ""; ""; " "; " "; crlf ++ [x09]; " "; crlf].
Definition ex_rule : bytes := render_rule crlf ex_fields (render ex_rtoks ex_rlay).

Example ex_rule_text :
  ex_rule = "/**" ++ crlf ++ " * @problem.severity HIGH" ++ crlf ++ " * @name Demo rule" ++ crlf
            ++ " * @id java/demo id" ++ crlf ++ " * @description finds  things" ++ crlf ++ " */" ++ crlf ++ crlf
            ++ "FROM method_declaration AS md" ++ crlf
            ++ "  WHERE md.getName() == ""a  b""" ++ crlf
            ++ [x09] ++ "SELECT md" ++ crlf.
Proof. vm_compute. reflexivity. Qed.

Example ex_rule_hyps :
  forallb field_okb ex_fields = true /\ forallb tok_wfb ex_rtoks = true
  /\ single_line_toks ex_rtoks = true /\ starts_with_from ex_rtoks = true
  /\ is_tin (last ex_rtoks TFrom) = false /\ first_empty ex_rlay = true
  /\ separable ex_rtoks ex_rlay = true /\ no_comment_open (render ex_rtoks ex_rlay) = true.
Proof. repeat split; vm_compute; reflexivity. Qed.
Example ex_rule_no_slash_star : no_slash_star ex_rtoks ex_rlay = true.
Proof. vm_compute. reflexivity. Qed.

Example ex_rule_metadata :
  let r := parse_ci ex_rule in
  r_id r = "java/demo id" /\ r_desc r = "finds  things" /\ r_severity r = "HIGH"
  /\ r_impact r = "" /\ r_provider r = "".
Proof.
  destruct ex_rule_hyps as (Hf & _).
  assert (Hq : starts_query (hd [] (split_on nl (render ex_rtoks ex_rlay))) = true)
    by (apply first_line_starts; reflexivity).
  exact (parse_ci_metadata crlf ex_fields _ (or_intror eq_refl) Hf Hq).
Qed.

Example ex_rule_tokens :
  lex_query (r_query (parse_ci ex_rule)) = Some ex_rtoks
  /\ lex_query (extract_file ex_rule) = Some ex_rtoks
  /\ lex_query (render ex_rtoks ex_rlay) = Some ex_rtoks.
Proof.
  destruct ex_rule_hyps as (Hf & H1 & H2 & H3 & H4 & H5 & H6 & H7).
  exact (same_tokens crlf ex_fields ex_rtoks ex_rlay (or_intror eq_refl) (fields_ok_nl _ Hf)
           H1 H2 H3 H4 H5 H6 H7).
Qed.

Example ex_rule_computed :
  r_query (parse_ci ex_rule)
  = "FROM method_declaration AS md" ++ [x0d; x20] ++ "  WHERE md.getName() == ""a  b""" ++ [x0d; x20; x09] ++ "SELECT md"
  /\ extract_file ex_rule
  = "FROM method_declaration AS md" ++ " " ++ "  WHERE md.getName() == ""a  b""" ++ [x20; x09] ++ "SELECT md".
Proof. split; vm_compute; reflexivity. Qed.

(* a string literal that spans two lines is NOT preserved: the line break inside the literal
   becomes a space (LF) or CR + space in ci and a space in scan/query (CRLF) *)
Definition ml_query (brk : bytes) : bytes :=
  "FROM method_declaration AS md" ++ brk ++ "WHERE md.getName() == ""a" ++ brk ++ "b""" ++ brk ++ "SELECT md".
Definition ml_rule (eol : bytes) : bytes := render_rule eol [("@id", "demo")] (ml_query eol).
Definition ml_toks (inside : bytes) : list token :=
  [TFrom; TIdent "method_declaration"; TAs; TIdent "md"; TWhere; TIdent "md"; TDot;
   TIdent "getName"; TLParen; TRParen; TEqEq; TString ("""a" ++ inside ++ "b"""); TSelect; TIdent "md"].

Theorem multiline_string_changes :
  (* LF files: both extractors change the literal *)
  lex_query (ml_query [nl]) = Some (ml_toks [nl])
  /\ lex_query (r_query (parse_ci (ml_rule [nl]))) = Some (ml_toks " ")
  /\ lex_query (extract_file (ml_rule [nl])) = Some (ml_toks " ")
  /\ lex_query (r_query (parse_ci (ml_rule [nl]))) <> lex_query (ml_query [nl])
  (* CRLF files: they change it differently *)
  /\ lex_query (ml_query crlf) = Some (ml_toks crlf)
  /\ lex_query (r_query (parse_ci (ml_rule crlf))) = Some (ml_toks [x0d; x20])
  /\ lex_query (extract_file (ml_rule crlf)) = Some (ml_toks " ")
  /\ lex_query (r_query (parse_ci (ml_rule crlf))) <> lex_query (extract_file (ml_rule crlf)).
Proof. repeat split; vm_compute; (reflexivity || discriminate). Qed.
Print Assumptions multiline_string_changes.

(* why [is_tin (last toks _) = false]: TrimSpace removes the space the token ' in ' ends with *)
Example last_in_counterexample :
  let toks := [TFrom; TIdent "x"; TIn] in let lay := [""; " "; " "; " "] in
  separable toks lay = true /\ lex_query (render toks lay) = Some toks
  /\ lex_query (r_query (parse_ci (render_rule [nl] [] (render toks lay)))) = Some [TFrom; TIdent "x"; TInWord].
Proof. repeat split; vm_compute; reflexivity. Qed.

(* why [no_comment_open]: ParseQuery drops a query line that starts with "/*"; the file-based
   extractor does not *)
Example comment_open_counterexample :
  let toks := [TFrom; TIdent "x"; TSlash; TStar; TNumber "2"] in
  let lay := [""; " "; [nl]; ""; ""; ""] in
  separable toks lay = true /\ no_comment_open (render toks lay) = false
  /\ lex_query (r_query (parse_ci (render_rule [nl] [] (render toks lay)))) = Some [TFrom; TIdent "x"]
  /\ lex_query (extract_file (render_rule [nl] [] (render toks lay))) = Some toks.
Proof. repeat split; vm_compute; reflexivity. Qed.

(* why values must be trimmed and keys must not contain a space *)
Example field_counterexamples :
  parse_comment_line " * @id  padded " = ("@id", " padded")
  /\ parse_comment_line " * @my key value" = ("@my", "key value").
Proof. split; vm_compute; reflexivity. Qed.
