(* SkelSim.v -- the abstraction [abs] of Scan/SkelAbs.v relates the generic small-step semantics
   (Scan/SkelSem.v) of [pool_program_modelled] (= the program extracted from graph.Initialize,
   PoolSkel.pool_program_matches) to the hand-written transition system Pool.step, for EVERY list of files
   and every failure assignment: every step of the program is a Pool.step or invisible (simulation), and
   every Pool.step is matched by steps of the program unless the status updater is committed to return
   (Scan/SkelCompl.v states this for configurations).

   Method: every reachable configuration is either one of the nine configurations of the sequential prologue
   ([pre j], j < NPRE: only "Initialize" exists) or the concretisation [conc d] of a description d: the program
   counter of Initialize, the workers, the optional status updater and closer, the channel buffers and the
   ghost lists.  Closed flags and the wait-group counter are FUNCTIONS of the description, so that the
   well-formedness predicate [wfd] is small.  The program is evaluated symbolically ONCE: [sk_steps_conc]
   says that the successors of [conc d], d well formed, are the concretisations of the [dstep]-successors
   of d, given by four small functions on program counters (mnext, wnext, snext, cnext).
   Everything else -- here, in Scan/SkelTerm.v and in Scan/SkelCompl.v -- is proved about these functions:
   - [dstep_sim]: a step keeps the description well formed and its abstraction is equal or one Pool.step
     away; the guards of Pool.step are the semantics' own checks (capacities, closed flags, wait group);
   - [complete_d]: each goroutine runs silently to a program counter ([mnorm], [wnorm], [snorm]) at which
     its successors are, up to [absd], what Pool.v's executable successor functions list ([main_match],
     [worker_match]);
   - deadlock freedom under the generic semantics (a reachable configuration without successor is
     finished) follows from [complete_d] and PoolFacts' deadlock freedom of Pool.v;
   - PoolFacts' delivery / merge-order / quiescence theorems transfer to the configurations of the program.

   Section SimW proves everything for the program with an ARBITRARY literal v for numWorkers
   ([pool_prog_lit v], dec_val 0 v = Some w; theorems *_w), which covers the harness' small pools;
   Section Sim instantiates v = "5" and states the theorems for [pool_program_modelled] (and, by
   PoolSkel.pool_program_matches, for the extracted [pool_program]). *)
From CPF Require Import Base.ListFacts Base.Bytes Base.Skel Scan.SkelSem Scan.Pool Scan.PoolFacts Scan.PoolSkel Scan.SkelAbs.
From CPF.gen Require Import Tables.
From Coq Require Import List Arith Lia Permutation.
Import ListNotations.
Open Scope bs_scope.

(* the program with an arbitrary literal for numWorkers; the extracted program has "5" *)
Definition pool_prog_lit (v : bytes) : list (bytes * list pstmt) :=
  match pool_program_modelled with
  | (nm, e :: l :: _ :: rest) :: gs => (nm, e :: l :: SConst "n1" v :: rest) :: gs
  | p => p
  end.

Lemma pool_prog_lit_5 : pool_prog_lit "5" = pool_program_modelled.
Proof. reflexivity. Qed.

Definition MB : list pstmt :=        (* body of Initialize *)
  match pool_program_modelled with (_, b) :: _ => b | [] => [] end.
(* the statements of Initialize before the spawn loop, executed while no other goroutine exists *)
Notation NPRE := 9 (only parsing).
Definition MREST : list pstmt := skipn NPRE MB.     (* Initialize from the spawn loop on *)
Definition WBODY : list pstmt := body_of pool_program_modelled "g0".
Definition WLOOP : list pstmt :=     (* body of the worker's range loop *)
  match WBODY with SRange _ b :: _ => b | _ => [] end.
Definition SBODY : list pstmt := body_of pool_program_modelled "g1".
Definition SSEL : list pstmt :=      (* body of the status updater's for-loop *)
  match SBODY with _ :: SForever b :: _ => b | _ => [] end.
Definition CBODY : list pstmt := body_of pool_program_modelled "g2".

(* program counters of Initialize from the spawn loop on *)
Inductive mpc : Type :=
| M_loop                       (* SLoopN .. *)
| M_times (k : nat)            (* loop head, k workers still to spawn *)
| M_go (k : nat)               (* about to [go worker], k more afterwards *)
| M_foreach
| M_each (rest : list nat)
| M_send (rest : list nat)     (* about to send g_cur *)
| M_close
| M_make4
| M_go1
| M_go2
| M_range
| M_krange
| M_hook
| M_join
| M_ret
| M_dead.

(* The positions here and in [wk_of], [sk_of], [ck_of] are those of the statements of
   [pool_program_modelled] (PoolSkel.v).  They are re-checked where the program is evaluated at every program
   counter: each [reflexivity] in [gstep_main], [gstep_worker], [gstep_status] and [gstep_closer] compares a
   step of the semantics out of one of these continuations with the continuation of the next program counter;
   [pre_facts] and [pre_end] do the same for the NPRE statements before them. *)
Definition mk_of (p : mpc) : list kitem :=
  match p with
  | M_loop => ks MREST
  | M_times k => KTimes k [SGo "g0"] :: ks (skipn 1 MREST)
  | M_go k => KS (SGo "g0") :: KTimes k [SGo "g0"] :: ks (skipn 1 MREST)
  | M_foreach => ks (skipn 1 MREST)
  | M_each rest => KEach rest [SSend "c0"] :: ks (skipn 2 MREST)
  | M_send rest => KS (SSend "c0") :: KEach rest [SSend "c0"] :: ks (skipn 2 MREST)
  | M_close => ks (skipn 2 MREST)
  | M_make4 => ks (skipn 3 MREST)
  | M_go1 => ks (skipn 4 MREST)
  | M_go2 => ks (skipn 5 MREST)
  | M_range => ks (skipn 6 MREST)
  | M_krange => KRange "c1" [SHook "verifOnMerge"] :: ks (skipn 7 MREST)
  | M_hook => KS (SHook "verifOnMerge") :: KRange "c1" [SHook "verifOnMerge"] :: ks (skipn 7 MREST)
  | M_join => ks (skipn 7 MREST)
  | M_ret => ks (skipn 8 MREST)
  | M_dead => []
  end.

Definition mlive (p : mpc) : bool := match p with M_dead => false | _ => true end.

(* g_ok of Initialize and of the workers is always true: nothing but a select sets it to false *)
Definition mgor (p : mpc) (c : nat) : gor := G "Initialize" (mk_of p) c true [] (mlive p).

Definition mst : Type := (mpc * nat * bool)%type.     (* pc, g_cur, g_ok *)

Definition past_close_m (p : mpc) : bool :=
  match p with
  | M_loop | M_times _ | M_go _ | M_foreach | M_each _ | M_send _ | M_close => false
  | _ => true
  end.
Definition has_c4 (p : mpc) : bool :=
  match p with
  | M_loop | M_times _ | M_go _ | M_foreach | M_each _ | M_send _ | M_close | M_make4 => false
  | _ => true
  end.
Definition has_g1 (p : mpc) : bool :=
  match p with
  | M_loop | M_times _ | M_go _ | M_foreach | M_each _ | M_send _ | M_close | M_make4 | M_go1 => false
  | _ => true
  end.
Definition has_g2 (p : mpc) : bool :=
  match p with
  | M_loop | M_times _ | M_go _ | M_foreach | M_each _ | M_send _ | M_close | M_make4 | M_go1 | M_go2 => false
  | _ => true
  end.

(* program counters of a worker *)
Inductive wpc : Type :=
| W_start | W_range
| W_hook | W_s1 | W_rd | W_ps | W_s2 | W_bd | W_s3 | W_sr | W_sp
| W_done | W_end | W_dead.

Definition WTAIL : list kitem := [KRange "c0" WLOOP; KS SWgDone].
Definition wk_of (p : wpc) : list kitem :=
  match p with
  | W_start => ks WBODY
  | W_range => WTAIL
  | W_hook => ks (skipn 0 WLOOP) ++ WTAIL
  | W_s1 => ks (skipn 1 WLOOP) ++ WTAIL
  | W_rd => ks (skipn 2 WLOOP) ++ WTAIL
  | W_ps => ks (skipn 3 WLOOP) ++ WTAIL
  | W_s2 => ks (skipn 4 WLOOP) ++ WTAIL
  | W_bd => ks (skipn 5 WLOOP) ++ WTAIL
  | W_s3 => ks (skipn 6 WLOOP) ++ WTAIL
  | W_sr => ks (skipn 7 WLOOP) ++ WTAIL
  | W_sp => ks (skipn 8 WLOOP) ++ WTAIL
  | W_done => [KS SWgDone]
  | W_end => []
  | W_dead => []
  end.
Definition wlive (p : wpc) : bool := match p with W_dead => false | _ => true end.
(* has not executed wg.Done() yet *)
Definition wpend (p : wpc) : nat := match p with W_end | W_dead => 0 | _ => 1 end.

Definition wst : Type := (wpc * nat)%type.            (* pc, g_cur *)
Definition wgor (x : wst) : gor := G "g0" (wk_of (fst x)) (snd x) true [] (wlive (fst x)).
Definition wabs (x : wst) : wstate :=
  let c := snd x in
  match fst x with
  | W_start | W_range => Recv
  | W_hook | W_s1 => Status1 c
  | W_rd | W_ps => Read c
  | W_s2 => Status2 c
  | W_bd => Build c
  | W_s3 => Status3 c
  | W_sr => SendResult c
  | W_sp => SendProgress c
  | W_done | W_end | W_dead => WExited
  end.
Definition pendings (ws : list wst) : nat := list_sum (map (fun x : wst => wpend (fst x)) ws).
(* a freshly spawned worker *)
Definition W0 : wst := (W_start, 0).

(* status updater *)
Inductive spc : Type := S_defer | S_forever | S_kforever | S_select | S_if | S_ret | S_dead.
Definition sk_of (p : spc) : list kitem :=
  match p with
  | S_defer => ks SBODY
  | S_forever => ks (skipn 1 SBODY)
  | S_kforever => [KForever SSEL]
  | S_select => ks SSEL ++ [KForever SSEL]
  | S_if | S_ret => [KS SIfClosedReturn; KForever SSEL]
  | S_dead => []
  end.
Definition slive (p : spc) : bool := match p with S_dead => false | _ => true end.
Definition sdefer (p : spc) : list bytes := match p with S_defer | S_dead => [] | _ => ["c4"] end.
(* ok of the last select: false only after the one that saw a closed and drained channel (S_ret: at
   [if !ok { return }] with ok = false) *)
Definition sok (p : spc) : bool := match p with S_ret | S_dead => false | _ => true end.
Definition sst : Type := (spc * nat)%type.            (* pc, g_cur *)
(* At S_ret the status updater is committed: its select has seen a closed and drained channel, and all it can
   do is return.  [sabs] below fuses the two steps and still shows GRunning there.  On configurations this is
   SkelCompl.committed_g (SkelCompl.uncommitted_conc). *)
Definition committed (g1 : option sst) : bool :=
  match g1 with Some (S_ret, _) => true | _ => false end.
Definition sgor (x : sst) : gor :=
  G "g1" (sk_of (fst x)) (snd x) (sok (fst x)) (sdefer (fst x)) (slive (fst x)).
Definition sabs (g1 : option sst) : gstate :=
  match g1 with
  | None => GNotStarted
  | Some (S_dead, _) => GExited
  | Some _ => GRunning
  end.
Definition sdead (g1 : option sst) : bool :=
  match g1 with Some (S_dead, _) => true | _ => false end.

(* closer *)
Inductive cpc : Type := C_wait | C_c1 | C_c2 | C_c3 | C_end | C_dead.
Definition ck_of (p : cpc) : list kitem :=
  match p with
  | C_wait => ks CBODY
  | C_c1 => ks (skipn 1 CBODY)
  | C_c2 => ks (skipn 2 CBODY)
  | C_c3 => ks (skipn 3 CBODY)
  | C_end => []
  | C_dead => []
  end.
Definition clive (p : cpc) : bool := match p with C_dead => false | _ => true end.
Definition cgor (p : cpc) : gor := G "g2" (ck_of p) 0 true [] (clive p).
Definition cabs (g2 : option cpc) : cstate :=
  match g2 with
  | None => CNotStarted
  | Some C_wait | Some C_c1 => CWaiting
  | Some C_c2 => CClosedR
  | Some C_c3 => CClosedRS
  | Some C_end | Some C_dead => CFired
  end.
Definition cpast (g2 : option cpc) : bool :=     (* wg.Wait() has returned *)
  match g2 with None | Some C_wait => false | _ => true end.
Definition fl1 (g2 : option cpc) : bool := rclosed_c (cabs g2).
Definition fl2 (g2 : option cpc) : bool := sclosed_c (cabs g2).
Definition fl3 (g2 : option cpc) : bool := pclosed_c (cabs g2).

Definition olist {A} (o : option A) : list A := match o with Some a => [a] | None => [] end.
Definition isnil {A} (l : list A) : bool := match l with [] => true | _ => false end.
Definition is_some {A} (o : option A) : bool := match o with Some _ => true | None => false end.

Record data : Type := Dt {
  d_q0 : list nat; d_q1 : list nat; d_q2 : list nat; d_q3 : list nat;
  d_mg : list nat; d_skp : list nat }.

(* a description: program counter and g_cur of Initialize, the workers spawned so far, the status updater
   and the closer once they exist, the buffers of c0 .. c3 and the ghost lists *)
Record desc : Type := Ds {
  d_pc : mpc; d_cur : nat; d_ws : list wst; d_g1 : option sst; d_g2 : option cpc; d_dt : data }.

Lemma in_olist : forall (A : Type) (o : option A) a, In a (olist o) <-> o = Some a.
Proof.
  intros A [b|] a; cbn; split; intros H.
  - destruct H as [<-|[]]. reflexivity.
  - injection H as <-. left. reflexivity.
  - destruct H.
  - discriminate H.
Qed.

(* the goroutines between the first one and the one that moves play no role *)
Definition insert (pre : list gor) (s : sk) : sk :=
  SK (match s_gors s with a :: r => a :: pre ++ r | [] => [] end)
     (s_chans s) (s_sizes s) (s_wg s) (s_merged s) (s_skipped s) (s_panic s).

Lemma set_gor_mid : forall pre g post ch sz wg mg skp p g',
  set_gor (SK (pre ++ g :: post) ch sz wg mg skp p) (length pre) g' = pre ++ g' :: post.
Proof.
  intros. unfold set_gor. cbn [s_gors]. rewrite firstn_mid, skipn_mid. reflexivity.
Qed.

Lemma gstep_insert : forall prog files fails a pre g post ch sz wg mg skp pn,
  gstep prog files fails (SK (a :: pre ++ g :: post) ch sz wg mg skp pn) (S (length pre)) =
  map (insert pre) (gstep prog files fails (SK (a :: g :: post) ch sz wg mg skp pn) 1).
Proof.
  intros. unfold gstep, with_g, do_return.
  cbn [s_gors s_chans s_sizes s_wg s_merged s_skipped s_panic nth_error].
  rewrite nth_error_mid.
  destruct g as [nm k c o df lv]. cbn [g_live g_k g_name g_cur g_ok g_defer negb].
  destruct lv; [|reflexivity]. cbn [negb].
  pose proof (set_gor_mid (a :: pre) (G nm k c o df true) post ch sz wg mg skp pn) as E.
  cbn [length app] in E.
  (* both sides have the case structure of gstep; in every case the goroutines of the result are
     [set_gor s i g'] (E), those of the configuration itself, or those with a spawned one appended *)
  destruct k as [|[st|ch0 b|[|x r] b|[|j] b|b] k]; [| destruct st | | | | | |].
  all: cbn [Nat.eqb].
  all: repeat match goal with |- context [match ?e with _ => _ end] => destruct e end.
  all: cbn [map insert s_gors s_chans s_sizes s_wg s_merged s_skipped s_panic]; rewrite ?E; try reflexivity.
  - rewrite map_flat_map. apply flat_map_ext. intros [ch0 body].
    destruct (slookup ch0 ch) as [[cap [|x r] []]|]; cbn [map insert s_gors c_buf c_closed]; rewrite ?E; reflexivity.
  - cbn. rewrite <- app_assoc. reflexivity.
Qed.

Local Arguments Nat.ltb : simpl never.
Local Arguments Nat.eqb : simpl never.

(* reflexive-transitive closure, head first like [Pool.star]: runs of descriptions here, of
   configurations in SkelCompl.v *)
Inductive rtc {A} (R : A -> A -> Prop) : A -> A -> Prop :=
| rtc_refl : forall x, rtc R x x
| rtc_cons : forall x y z, R x y -> rtc R y z -> rtc R x z.
Arguments rtc_refl {A R}.
Arguments rtc_cons {A R}.

Lemma rtc_one {A} (R : A -> A -> Prop) x y : R x y -> rtc R x y.
Proof. intros H. exact (rtc_cons _ _ _ H (rtc_refl _)). Qed.

Lemma rtc_trans {A} (R : A -> A -> Prop) x y z : rtc R x y -> rtc R y z -> rtc R x z.
Proof.
  intros H. induction H as [x | a b c Hs H IH]; intros H2; [exact H2|].
  eapply rtc_cons; [exact Hs | apply IH; exact H2].
Qed.

(* [H : f x = Some y], f a successor function already reduced at a program point: decide every test f
   still makes (a guard, a buffer empty or not, an error or none) and drop the branches without successor *)
Ltac branches H :=
  repeat match type of H with context [match ?e with _ => _ end] => destruct e eqn:? end; try discriminate H.

Section SimW.
  Variable v : bytes.                        (* the literal *)
  Variable w : nat.                          (* its value: the number of workers *)
  Hypothesis Hv : dec_val 0 v = Some w.
  Variable files : list nat.
  Variable fails : bytes -> nat -> bool.

  (* number of workers spawned so far *)
  Definition nworkers (p : mpc) (k : nat) : Prop :=
    match p with
    | M_loop => k = 0
    | M_times j => k + j = w
    | M_go j => k + j + 1 = w
    | _ => k = w
    end.
  (* the wait-group counter: wg.Add(w) precedes the spawn loop, so the workers still to be spawned count as
     well as those spawned that have not called wg.Done() *)
  Definition wgof (ws : list wst) : nat := (w - length ws) + pendings ws.

  Definition readable (f : nat) : bool :=
    negb (fails "readFile" f) && negb (fails "parser.ParseCtx" f).

  Notation n := (length files).
  Notation PROG := (pool_prog_lit v).
  Notation pstep := (Pool.step n w readable).

  Definition chans (p : mpc) (g1 : option sst) (g2 : option cpc) (D : data) : list (bytes * chan) :=
    [("c0", Ch n (d_q0 D) (past_close_m p));
     ("c1", Ch n (d_q1 D) (fl1 g2));
     ("c2", Ch w (d_q2 D) (fl2 g2));
     ("c3", Ch n (d_q3 D) (fl3 g2))]
    ++ (if has_c4 p then [("c4", Ch 0 [] (sdead g1))] else []).

  Definition SIZES : list (bytes * nat) := [("n0", n); ("n1", w)].

  Definition tailg (g1 : option sst) (g2 : option cpc) : list gor :=
    olist (option_map sgor g1) ++ olist (option_map cgor g2).

  Definition conc (d : desc) : sk :=
    let '(Ds p c ws g1 g2 D) := d in
    SK (mgor p c :: map wgor ws ++ tailg g1 g2) (chans p g1 g2 D) SIZES (wgof ws) (d_mg D) (d_skp D) false.

  Definition mabs (p : mpc) (c : nat) : mstate :=
    match p with
    | M_loop | M_times _ | M_go _ | M_foreach => Sending files
    | M_each rest => Sending rest
    | M_send rest => Sending (c :: rest)
    | M_close => CloseFiles
    | M_make4 | M_go1 => StartStatus
    | M_go2 => StartCloser
    | M_range | M_krange | M_hook => Collect
    | M_join => Join
    | M_ret | M_dead => Done
    end.

  (* Pool.v's state from its control part and the description's data *)
  Definition stof (m : mstate) (fc : bool) (wk : list wstate) (st : gstate) (co : cstate) (D : data) : state :=
    St m (d_q0 D) fc wk (length (d_q2 D)) (length (d_q3 D)) (d_q1 D) st co (d_mg D) (d_skp D).

  Definition absd (d : desc) : state :=
    let '(Ds p c ws g1 g2 D) := d in
    stof (mabs p c) (past_close_m p) (map wabs ws ++ repeat Recv (w - length ws)) (sabs g1) (cabs g2) D.

  (* a worker past the first error check has read its file *)
  Definition wok (x : wst) : Prop :=
    match fst x with W_ps => fails "readFile" (snd x) = false | _ => True end.

  Record wfd (d : desc) : Prop := {
    (* as many workers exist as the spawn loop's counter says *)
    wf_nw : nworkers (d_pc d) (length (d_ws d));
    (* the status updater and the closer exist from Initialize's [go] statements on *)
    wf_g1 : is_some (d_g1 d) = has_g1 (d_pc d);
    wf_g2 : is_some (d_g2 d) = has_g2 (d_pc d);
    (* once the closer's wg.Wait() has returned every worker has called wg.Done() *)
    wf_past : cpast (d_g2 d) = true -> pendings (d_ws d) = 0;
    (* the select of a committed status updater saw statusChan (c2) or progressChan (c3) closed and drained;
       it stays so, the senders having called wg.Done() (wf_past) *)
    wf_if : committed (d_g1 d) = true ->
            (fl2 (d_g2 d) && isnil (d_q2 (d_dt d))) || (fl3 (d_g2 d) && isnil (d_q3 (d_dt d))) = true;
    wf_ok : Forall wok (d_ws d) }.

  Definition mnext (d : desc) : option desc :=
    let '(Ds p c ws g1 g2 D) := d in
    let '(Dt q0 q1 q2 q3 mg skp) := D in
    match p with
    | M_loop => Some (Ds (M_times w) c ws g1 g2 D)
    | M_times 0 => Some (Ds M_foreach c ws g1 g2 D)
    | M_times (S k) => Some (Ds (M_go k) c ws g1 g2 D)
    | M_go k => Some (Ds (M_times k) c (ws ++ [W0]) g1 g2 D)
    | M_foreach => Some (Ds (M_each files) c ws g1 g2 D)
    | M_each [] => Some (Ds M_close c ws g1 g2 D)
    | M_each (f :: r) => Some (Ds (M_send r) f ws g1 g2 D)
    | M_send r =>
        if length q0 <? n then Some (Ds (M_each r) c ws g1 g2 (Dt (q0 ++ [c]) q1 q2 q3 mg skp)) else None
    | M_close => Some (Ds M_make4 c ws g1 g2 D)
    | M_make4 => Some (Ds M_go1 c ws g1 g2 D)
    | M_go1 => Some (Ds M_go2 c ws (Some (S_defer, 0)) g2 D)
    | M_go2 => Some (Ds M_range c ws g1 (Some C_wait) D)
    | M_range => Some (Ds M_krange c ws g1 g2 D)
    | M_krange =>
        match q1 with
        | f :: r => Some (Ds M_hook f ws g1 g2 (Dt q0 r q2 q3 (mg ++ [f]) skp))
        | [] => if fl1 g2 then Some (Ds M_join c ws g1 g2 D) else None
        end
    | M_hook => Some (Ds M_krange c ws g1 g2 D)
    | M_join => if sdead g1 then Some (Ds M_ret c ws g1 g2 D) else None
    | M_ret => Some (Ds M_dead c ws g1 g2 D)
    | M_dead => None
    end.

  (* fc: Initialize has closed c0 *)
  Definition wnext (fc : bool) (x : wst) (D : data) : option (wst * data) :=
    let '(p, c) := x in
    let '(Dt q0 q1 q2 q3 mg skp) := D in
    match p with
    | W_start => Some ((W_range, c), D)
    | W_range =>
        match q0 with
        | f :: r => Some ((W_hook, f), Dt r q1 q2 q3 mg skp)
        | [] => if fc then Some ((W_done, c), D) else None
        end
    | W_hook => Some ((W_s1, c), D)
    | W_s1 => if length q2 <? w then Some ((W_rd, c), Dt q0 q1 (q2 ++ [c]) q3 mg skp) else None
    | W_rd => Some (if fails "readFile" c then ((W_range, c), Dt q0 q1 q2 q3 mg (c :: skp)) else ((W_ps, c), D))
    | W_ps =>
        Some (if fails "parser.ParseCtx" c then ((W_range, c), Dt q0 q1 q2 q3 mg (c :: skp)) else ((W_s2, c), D))
    | W_s2 => if length q2 <? w then Some ((W_bd, c), Dt q0 q1 (q2 ++ [c]) q3 mg skp) else None
    | W_bd => Some ((W_s3, c), D)
    | W_s3 => if length q2 <? w then Some ((W_sr, c), Dt q0 q1 (q2 ++ [c]) q3 mg skp) else None
    | W_sr => if length q1 <? n then Some ((W_sp, c), Dt q0 (q1 ++ [c]) q2 q3 mg skp) else None
    | W_sp => if length q3 <? n then Some ((W_range, c), Dt q0 q1 q2 (q3 ++ [c]) mg skp) else None
    | W_done => Some ((W_end, c), D)
    | W_end => Some ((W_dead, c), D)
    | W_dead => None
    end.

  Definition snext (x : sst) (g2 : option cpc) (D : data) : list (sst * data) :=
    let '(p, c) := x in
    let '(Dt q0 q1 q2 q3 mg skp) := D in
    match p with
    | S_defer => [((S_forever, c), D)]
    | S_forever => [((S_kforever, c), D)]
    | S_kforever => [((S_select, c), D)]
    | S_select =>
        match q2 with
        | y :: r => [((S_if, y), Dt q0 q1 r q3 mg skp)]
        | [] => if fl2 g2 then [((S_ret, c), D)] else []
        end ++
        match q3 with
        | y :: r => [((S_if, y), Dt q0 q1 q2 r mg skp)]
        | [] => if fl3 g2 then [((S_ret, c), D)] else []
        end
    | S_if => [((S_kforever, c), D)]
    | S_ret => [((S_dead, c), D)]
    | S_dead => []
    end.

  Definition cnext (q : cpc) (ws : list wst) : option cpc :=
    match q with
    | C_wait => if wgof ws =? 0 then Some C_c1 else None
    | C_c1 => Some C_c2
    | C_c2 => Some C_c3
    | C_c3 => Some C_end
    | C_end => Some C_dead
    | C_dead => None
    end.

  Inductive dstep : desc -> desc -> Prop :=
  | dstep_main : forall d d', mnext d = Some d' -> dstep d d'
  | dstep_worker : forall p c l1 x l2 g1 g2 D x' D', wnext (past_close_m p) x D = Some (x', D') ->
      dstep (Ds p c (l1 ++ x :: l2) g1 g2 D) (Ds p c (l1 ++ x' :: l2) g1 g2 D')
  | dstep_status : forall p c ws x g2 D x' D', In (x', D') (snext x g2 D) ->
      dstep (Ds p c ws (Some x) g2 D) (Ds p c ws (Some x') g2 D')
  | dstep_closer : forall p c ws g1 q D q', cnext q ws = Some q' ->
      dstep (Ds p c ws g1 (Some q) D) (Ds p c ws g1 (Some q') D).

  Lemma wgof_snoc : forall ws : list wst, length ws < w -> wgof (ws ++ [W0]) = wgof ws.
  Proof.
    intros ws H. unfold wgof, pendings. rewrite map_app, list_sum_app, app_length. cbn. lia.
  Qed.

  Lemma gstep_main : forall d, wfd d -> gstep PROG files fails (conc d) 0 = map conc (olist (mnext d)).
  Proof.
    intros [p c ws g1 g2 [q0 q1 q2 q3 mg skp]] [W1 W2 W3 _ _ _]. cbn [d_pc d_ws d_g1 d_g2] in W1, W2, W3.
    unfold conc, chans.
    destruct p; cbn; try reflexivity.
    - destruct k; reflexivity.
    - destruct g1; [discriminate W2|]. destruct g2; [discriminate W3|].
      unfold with_g, tailg. cbn. rewrite !app_nil_r, map_app, wgof_snoc by (cbn in W1; lia). reflexivity.
    - destruct rest; reflexivity.
    - destruct (length q0 <? n); reflexivity.
    - destruct g1; [discriminate W2 | reflexivity].
    - destruct g1; [discriminate W2|]. destruct g2; [discriminate W3|].
      unfold with_g, tailg. cbn. rewrite app_nil_r. reflexivity.
    - destruct g2; [discriminate W3|].
      unfold with_g, tailg. cbn. rewrite app_nil_r, <- app_assoc. reflexivity.
    - destruct q1; [destruct (fl1 g2) eqn:F|]; cbn; rewrite ?F; reflexivity.
    - destruct (sdead g1) eqn:F; cbn; rewrite ?F; reflexivity.
  Qed.

  (* the worker that moves, between the others; the wait-group counter without its share *)
  Lemma conc_worker : forall p c (l1 : list wst) (x : wst) l2 g1 g2 D,
    conc (Ds p c (l1 ++ x :: l2) g1 g2 D) =
    SK (mgor p c :: map wgor l1 ++ wgor x :: map wgor l2 ++ tailg g1 g2) (chans p g1 g2 D) SIZES
       (wpend (fst x) + ((w - S (length (l1 ++ l2))) + pendings (l1 ++ l2))) (d_mg D) (d_skp D) false.
  Proof.
    intros. unfold conc, wgof, pendings. rewrite list_sum_mid, !map_app, list_sum_app, !app_length, <- app_assoc.
    cbn [map app length]. f_equal. lia.
  Qed.

  (* In the three lemmas below [gstep_insert] leaves a configuration whose goroutines are Initialize, the one
     that moves and an opaque rest; its step is computed for each program counter. *)
  Lemma gstep_worker : forall p c (l1 : list wst) (x : wst) l2 g1 g2 D,
    (cpast g2 = true -> pendings (l1 ++ x :: l2) = 0) ->
    gstep PROG files fails (conc (Ds p c (l1 ++ x :: l2) g1 g2 D)) (S (length l1)) =
    map (fun xD => conc (Ds p c (l1 ++ fst xD :: l2) g1 g2 (snd xD))) (olist (wnext (past_close_m p) x D)).
  Proof.
    intros p c l1 [q cu] l2 g1 g2 D Hp.
    (* a worker that has not called wg.Done() keeps the closer in wg.Wait(): no channel is closed *)
    assert (Hs : wpend q = 1 -> fl1 g2 = false /\ fl2 g2 = false /\ fl3 g2 = false).
    { intros E. unfold pendings in Hp.
      rewrite list_sum_mid in Hp. destruct g2 as [[]|]; auto; specialize (Hp eq_refl); cbn [fst] in Hp; lia. }
    rewrite conc_worker, <- (map_length wgor l1), gstep_insert.
    rewrite (map_ext _ _ (fun xD => conc_worker p c l1 (fst xD) l2 g1 g2 (snd xD))).
    generalize (map wgor l2 ++ tailg g1 g2), ((w - S (length (l1 ++ l2))) + pendings (l1 ++ l2)). intros post R.
    destruct D as [q0 q1 q2 q3 mg skp]. unfold chans.
    destruct q; try (destruct (Hs eq_refl) as (-> & -> & ->)); cbn -[mgor]; try reflexivity.
    - destruct q0; [destruct (past_close_m p)|]; reflexivity.
    - destruct (length q2 <? w); reflexivity.
    - destruct (fails "readFile" cu); reflexivity.
    - destruct (fails "parser.ParseCtx" cu); reflexivity.
    - destruct (length q2 <? w); reflexivity.
    - destruct (length q2 <? w); reflexivity.
    - destruct (length q1 <? n); reflexivity.
    - destruct (length q3 <? n); reflexivity.
    - rewrite Nat.sub_0_r. reflexivity.
  Qed.

  Lemma gstep_status : forall p c (ws : list wst) x g2 D, true = has_g1 p ->
    gstep PROG files fails (conc (Ds p c ws (Some x) g2 D)) (S (length ws)) =
    map (fun xD => conc (Ds p c ws (Some (fst xD)) g2 (snd xD))) (snext x g2 D).
  Proof.
    intros p c ws x g2 D W.
    assert (H4 : has_c4 p = true) by (destruct p; try discriminate; reflexivity).
    unfold conc, tailg. cbn [option_map olist app].
    rewrite <- (map_length wgor ws), gstep_insert. generalize (olist (option_map cgor g2)). intros post.
    destruct x as [q cu]. destruct D as [q0 q1 q2 q3 mg skp].
    unfold chans. rewrite H4. destruct q; cbn -[mgor]; try reflexivity.
    rewrite app_nil_r, !map_app. f_equal.
    - destruct q2; [destruct (fl2 g2) eqn:F|]; rewrite ?F; reflexivity.
    - destruct q3; [destruct (fl3 g2) eqn:F|]; rewrite ?F; reflexivity.
  Qed.

  Lemma gstep_closer : forall p c (ws : list wst) g1 q D,
    gstep PROG files fails (conc (Ds p c ws g1 (Some q) D)) (S (length ws + length (olist g1))) =
    map (fun q' => conc (Ds p c ws g1 (Some q') D)) (olist (cnext q ws)).
  Proof.
    intros p c ws g1 q D. unfold conc, tailg. cbn [option_map olist].
    rewrite (map_ext _ _ (fun q' => f_equal (fun l => SK (_ :: l) _ _ _ _ _ _) (app_assoc _ _ [cgor q']))), app_assoc.
    set (pre := map wgor ws ++ olist (option_map sgor g1)).
    replace (length ws + length (olist g1)) with (length pre)
      by (unfold pre; rewrite app_length, map_length; destruct g1; reflexivity).
    rewrite gstep_insert. unfold chans. destruct q; cbn -[mgor]; try reflexivity.
    destruct (wgof ws =? 0); reflexivity.
  Qed.

  (* the goroutines are tried in the order Initialize, workers, status updater, closer *)
  Theorem sk_steps_conc : forall d s', wfd d ->
    In s' (sk_steps PROG files fails (conc d)) <-> exists d', dstep d d' /\ conc d' = s'.
  Proof.
    intros d s' W. unfold sk_steps.
    replace (length (s_gors (conc d)))
      with (S (length (d_ws d) + (length (olist (d_g1 d)) + length (olist (d_g2 d))))).
    2:{ destruct d as [p c ws g1 g2 D]. unfold conc, tailg. cbn [s_gors length d_ws d_g1 d_g2].
        rewrite !app_length, map_length. destruct g1, g2; reflexivity. }
    cbn [seq flat_map]. rewrite !seq_app, !flat_map_app, !in_app_iff, (gstep_main d W).
    destruct d as [p c ws g1 g2 D]. cbn [d_ws d_g1 d_g2]. split.
    - intros [H | [H | [H | H]]].
      + apply in_map_iff in H. destruct H as [d' [E H]]. apply in_olist in H.
        exists d'. split; [apply dstep_main, H | exact E].
      + apply in_flat_map in H. destruct H as [i [Hi H]]. apply in_seq in Hi.
        destruct (nth_error ws (i - 1)) as [x|] eqn:E; [|apply nth_error_None in E; lia].
        apply nth_error_split in E. destruct E as (l1 & l2 & -> & El).
        replace i with (S (length l1)) in H by lia. rewrite gstep_worker in H by exact (wf_past _ W).
        apply in_map_iff in H. destruct H as [[x' D'] [E H]]. apply in_olist in H.
        exists (Ds p c (l1 ++ x' :: l2) g1 g2 D'). split; [apply dstep_worker, H | exact E].
      + destruct g1 as [x|]; [|destruct H]. cbn [olist length seq flat_map] in H.
        rewrite app_nil_r, gstep_status in H by exact (wf_g1 _ W). apply in_map_iff in H. destruct H as [[x' D'] [E H]].
        exists (Ds p c ws (Some x') g2 D'). split; [apply dstep_status, H | exact E].
      + destruct g2 as [q|]; [|destruct H]. cbn [olist length seq flat_map] in H.
        rewrite app_nil_r, gstep_closer in H. apply in_map_iff in H. destruct H as [q' [E H]]. apply in_olist in H.
        exists (Ds p c ws g1 (Some q') D). split; [apply dstep_closer, H | exact E].
    - intros [d' [H <-]]. inversion H; subst.
      + left. apply in_map, in_olist. assumption.
      + right. left. apply in_flat_map. exists (S (length l1)).
        split; [apply in_seq; rewrite app_length; cbn; lia|]. rewrite gstep_worker by exact (wf_past _ W).
        apply in_map_iff. exists (x', D'). split; [reflexivity | apply in_olist; assumption].
      + right. right. left. cbn [olist length seq flat_map]. rewrite app_nil_r, gstep_status by exact (wf_g1 _ W).
        apply in_map_iff. exists (x', D'). split; [reflexivity | assumption].
      + right. right. right. cbn [olist length seq flat_map]. rewrite app_nil_r, gstep_closer.
        apply in_map_iff. exists q'. split; [reflexivity | apply in_olist; assumption].
  Qed.

  Lemma find_gor_conc : forall nm p c (ws : list wst) r,
    bytes_eqb "Initialize" nm = false -> bytes_eqb "g0" nm = false ->
    find_gor nm (mgor p c :: map wgor ws ++ r) = find_gor nm r.
  Proof.
    intros nm p c ws r H1 H2. unfold find_gor. cbn [find mgor g_name]. rewrite H1.
    induction ws as [|x ws IH]; [reflexivity|]. cbn [map app find wgor g_name]. rewrite H2. exact IH.
  Qed.

  Lemma filter_g0_conc : forall p c (ws : list wst) g1 g2,
    filter (fun g => bytes_eqb (g_name g) "g0") (mgor p c :: map wgor ws ++ tailg g1 g2) = map wgor ws.
  Proof.
    intros. cbn [filter mgor g_name]. change (bytes_eqb "Initialize" "g0") with false. cbv iota.
    induction ws as [|x ws IH].
    - destruct g1 as [[q cu]|], g2; reflexivity.
    - cbn [map app filter wgor g_name]. change (bytes_eqb "g0" "g0") with true. cbv iota. rewrite IH. reflexivity.
  Qed.

  Lemma closer_pc_conc : forall p c (ws : list wst) g1 g2,
    closer_pc (mgor p c :: map wgor ws ++ tailg g1 g2) = cabs g2.
  Proof.
    intros. unfold closer_pc. rewrite find_gor_conc by reflexivity.
    destruct g1 as [[q cu]|], g2 as [[]|]; reflexivity.
  Qed.

  Lemma abs_conc : forall d, abs files w (conc d) = absd d.
  Proof.
    intros [p c ws g1 g2 D]. unfold abs, absd, stof, conc. cbn [s_gors s_merged s_skipped].
    rewrite filter_g0_conc, closer_pc_conc, map_map, map_length. unfold status_pc.
    rewrite (map_ext _ wabs) by (intros [[] cu]; reflexivity).
    rewrite find_gor_conc by reflexivity. f_equal.
    - destruct p; reflexivity.
    - destruct g1 as [[[] cu]|], g2; reflexivity.
  Qed.

  Lemma flags_agree_conc : forall d, flags_agree (conc d) = true.
  Proof.
    intros [p c ws g1 g2 D]. unfold flags_agree, conc. cbn [s_gors].
    rewrite closer_pc_conc. destruct g2 as [[]|]; reflexivity.
  Qed.

  Definition sim (a b : state) : Prop := b = a \/ pstep a b.

  Lemma absd_worker : forall p c (l1 : list wst) x l2 g1 g2 D,
    absd (Ds p c (l1 ++ x :: l2) g1 g2 D) =
    stof (mabs p c) (past_close_m p)
         (map wabs l1 ++ wabs x :: (map wabs l2 ++ repeat Recv (w - S (length l1 + length l2))))
         (sabs g1) (cabs g2) D.
  Proof.
    intros. unfold absd. rewrite map_app, app_length, <- app_assoc. cbn [map app length].
    rewrite Nat.add_succ_r. reflexivity.
  Qed.

  Lemma wnext_wf : forall p c l1 x l2 g1 g2 D x' D',
    wfd (Ds p c (l1 ++ x :: l2) g1 g2 D) -> wnext (past_close_m p) x D = Some (x', D') ->
    wfd (Ds p c (l1 ++ x' :: l2) g1 g2 D').
  Proof.
    intros p c l1 [q cu] l2 g1 g2 D x' D' [W1 W2 W3 W4 W5 W6] H.
    cbn [d_pc d_ws d_g1 d_g2 d_dt] in *. unfold pendings in *. rewrite list_sum_mid in W4. cbn [fst] in W4.
    (* a step does not undo wg.Done(), keeps [wok], and sends only before wg.Done() *)
    assert (Hx : wpend (fst x') <= wpend q /\ wok x' /\ (wpend q = 0 -> D' = D)).
    { pose proof (Forall_elt _ _ _ W6) as Hok. destruct D as [q0 q1 q2 q3 mg skp]. destruct q; cbn in H, Hok.
      all: branches H; injection H as <- <-; cbn.
      all: repeat split; auto; discriminate. }
    destruct Hx as (Hp & Hok & Hq). constructor; cbn [d_pc d_ws d_g1 d_g2 d_dt]; try assumption.
    - rewrite app_length in *. exact W1.
    - intros Hc. specialize (W4 Hc). unfold pendings. rewrite list_sum_mid. lia.
    - intros Hs. specialize (W5 Hs).
      assert (Hc : cpast g2 = true) by (destruct g2 as [[]|]; try discriminate W5; reflexivity).
      rewrite Hq; [exact W5 | specialize (W4 Hc); lia].
    - exact (Forall_mid W6 Hok).
  Qed.

  Lemma wnext_abs : forall m fc l1 x l2 st co D x' D', wok x -> wnext fc x D = Some (x', D') ->
    sim (stof m fc (l1 ++ wabs x :: l2) st co D) (stof m fc (l1 ++ wabs x' :: l2) st co D').
  Proof.
    intros m fc l1 [q cu] l2 st co [q0 q1 q2 q3 mg skp] x' D' Hok H. unfold sim, stof.
    destruct q; cbn in H, Hok; try (injection H as <- <-; left; reflexivity); cbn.
    - destruct q0 as [|f r]; [destruct fc; [|discriminate H]|]; injection H as <- <-; right.
      + apply step_w_exit.
      + apply step_w_recv.
    - destruct (length q2 <? w) eqn:Hlt; [|discriminate H]. injection H as <- <-. right. cbn.
      rewrite last_length. apply step_w_status1, Nat.ltb_lt, Hlt.
    - destruct (fails "readFile" cu) eqn:Hf; injection H as <- <-; [right | left; reflexivity].
      apply step_w_read_fail. unfold readable. rewrite Hf. reflexivity.
    - destruct (fails "parser.ParseCtx" cu) eqn:Hf; injection H as <- <-; right.
      + apply step_w_read_fail. unfold readable. rewrite Hf. apply andb_false_r.
      + apply step_w_read_ok. unfold readable. rewrite Hf, Hok. reflexivity.
    - destruct (length q2 <? w) eqn:Hlt; [|discriminate H]. injection H as <- <-. right. cbn.
      rewrite last_length. apply step_w_status2, Nat.ltb_lt, Hlt.
    - injection H as <- <-. right. apply step_w_build.
    - destruct (length q2 <? w) eqn:Hlt; [|discriminate H]. injection H as <- <-. right. cbn.
      rewrite last_length. apply step_w_status3, Nat.ltb_lt, Hlt.
    - destruct (length q1 <? n) eqn:Hlt; [|discriminate H]. injection H as <- <-. right.
      apply step_w_send_result, Nat.ltb_lt, Hlt.
    - destruct (length q3 <? n) eqn:Hlt; [|discriminate H]. injection H as <- <-. right. cbn.
      rewrite last_length. apply step_w_send_progress, Nat.ltb_lt, Hlt.
    - discriminate H.
  Qed.

  Lemma snext_sim : forall p c ws x g2 D x' D',
    wfd (Ds p c ws (Some x) g2 D) -> In (x', D') (snext x g2 D) ->
    wfd (Ds p c ws (Some x') g2 D') /\ sim (absd (Ds p c ws (Some x) g2 D)) (absd (Ds p c ws (Some x') g2 D')).
  Proof.
    intros p c ws [q cu] g2 [q0 q1 q2 q3 mg skp] x' D' [W1 W2 W3 W4 W5 W6] H.
    cbn [d_pc d_ws d_g1 d_g2 d_dt d_q2 d_q3] in *.
    assert (Wf : forall y D1, (committed (Some y) = true ->
                (fl2 g2 && isnil (d_q2 D1)) || (fl3 g2 && isnil (d_q3 D1)) = true) ->
              wfd (Ds p c ws (Some y) g2 D1)) by (intros y D1 Hy; constructor; assumption).
    destruct q; cbn in H; try (destruct H as [[= <- <-]|[]]; split; [apply Wf; discriminate | left; reflexivity]).
    - apply in_app_or in H. destruct H as [H|H].
      + destruct q2 as [|y r]; [destruct (fl2 g2); [|destruct H]|]; destruct H as [[= <- <-]|[]].
        * split; [apply Wf; intros _; reflexivity | left; reflexivity].
        * split; [apply Wf; discriminate | right; apply step_g_status].
      + destruct q3 as [|y r]; [destruct (fl3 g2); [|destruct H]|]; destruct H as [[= <- <-]|[]].
        * split; [apply Wf; intros _; apply orb_true_r | left; reflexivity].
        * split; [apply Wf; discriminate | right; apply step_g_progress].
    - destruct H as [[= <- <-]|[]]. split; [apply Wf; discriminate | right].
      (* the select that set ok = false saw a closed and drained channel *)
      specialize (W5 eq_refl). apply orb_true_iff in W5. unfold absd, stof. cbn.
      destruct W5 as [W5|W5]; apply andb_true_iff in W5; destruct W5 as [Wa Wb].
      + destruct q2; [|discriminate]. apply step_g_exit_status, Wa.
      + destruct q3; [|discriminate]. apply step_g_exit_progress, Wa.
    - destruct H.
  Qed.

  Lemma pendings0_exited : forall ws, pendings ws = 0 -> forallb is_exited (map wabs ws) = true.
  Proof.
    induction ws as [|[q cu] ws IH]; intros H; [reflexivity|].
    change (pendings ((q, cu) :: ws)) with (wpend q + pendings ws) in H.
    cbn [map forallb]. rewrite IH by lia.
    destruct q; cbn [wpend] in H; try lia; reflexivity.
  Qed.

  Lemma has_g1_nw : forall (M : mst) k, has_g1 (fst (fst M)) = true -> nworkers (fst (fst M)) k -> k = w.
  Proof. intros [[p c] o] k H1 H2. destruct p; try discriminate; exact H2. Qed.

  Lemma cnext_sim : forall p c ws g1 q D q',
    wfd (Ds p c ws g1 (Some q) D) -> cnext q ws = Some q' ->
    wfd (Ds p c ws g1 (Some q') D) /\ sim (absd (Ds p c ws g1 (Some q) D)) (absd (Ds p c ws g1 (Some q') D)).
  Proof.
    intros p c ws g1 q [q0 q1 q2 q3 mg skp] q' [W1 W2 W3 W4 W5 W6] H.
    cbn [d_pc d_ws d_g1 d_g2 d_dt d_q2 d_q3] in *.
    assert (Hlen : length ws = w) by (destruct p; try discriminate W3; exact W1).
    destruct q; cbn in H; try discriminate H.
    - destruct (wgof ws =? 0) eqn:Hz; [|discriminate H]. injection H as <-. apply Nat.eqb_eq in Hz.
      split; [|left; reflexivity]. constructor; try assumption. intros _. unfold wgof in Hz. cbn [d_ws]. lia.
    - injection H as <-. split; [constructor; assumption | right]. unfold absd. cbn [cabs].
      apply step_c_wait. rewrite Hlen, Nat.sub_diag, app_nil_r. apply pendings0_exited, W4. reflexivity.
    - injection H as <-. split; [constructor; try assumption | right; apply step_c_close_status].
      intros Hs. specialize (W5 Hs). cbn in W5 |- *. destruct (isnil q2); [reflexivity | exact W5].
    - injection H as <-. split; [constructor; try assumption | right; apply step_c_close_progress].
      intros Hs. specialize (W5 Hs). cbn in W5 |- *. destruct (isnil q2); [reflexivity | discriminate W5].
    - injection H as <-. split; [constructor; assumption | left; reflexivity].
  Qed.

  Lemma mnext_wf : forall d d', wfd d -> mnext d = Some d' -> wfd d'.
  Proof.
    intros [p c ws g1 g2 [q0 q1 q2 q3 mg skp]] d' [W1 W2 W3 W4 W5 W6] H. cbn [d_pc d_ws d_g1 d_g2 d_dt] in *.
    (* but for its three [go] statements Initialize moves on without touching the workers, the two other
       goroutines, c2 or c3 *)
    assert (Wm : forall p' c' q0' q1' mg', nworkers p' (length ws) -> has_g1 p' = has_g1 p -> has_g2 p' = has_g2 p ->
                   wfd (Ds p' c' ws g1 g2 (Dt q0' q1' q2 q3 mg' skp))).
    { intros. constructor; cbn [d_pc d_ws d_g1 d_g2 d_dt]; try assumption; congruence. }
    destruct p; cbn in H.
    all: branches H; injection H as <-.
    all: try (apply Wm; cbn in *; try reflexivity; lia).
    (* go worker, go status updater, go closer *)
    - destruct g2; [discriminate W3|]. constructor; cbn in *; try assumption; try discriminate.
      + rewrite app_length. cbn. lia.
      + apply Forall_app. split; [assumption | repeat constructor].
    - constructor; cbn in *; try assumption; try reflexivity; discriminate.
    - destruct g2; [discriminate W3|]. constructor; cbn in *; try assumption; try reflexivity; discriminate.
  Qed.

  Lemma mnext_abs : forall d d', nworkers (d_pc d) (length (d_ws d)) -> mnext d = Some d' -> sim (absd d) (absd d').
  Proof.
    intros [p c ws g1 g2 [q0 q1 q2 q3 mg skp]] d' W1 H. cbn [d_pc d_ws] in W1. unfold sim.
    destruct p; cbn in H; try (injection H as <-; left; reflexivity).
    - destruct k; injection H as <-; left; reflexivity.
    - (* [go worker]: the new worker stands where [absd] showed a worker still to come, at Recv *)
      injection H as <-. left. unfold absd. rewrite map_app, app_length, <- app_assoc. cbn in *.
      replace (w - length ws) with (S (w - (length ws + 1))) by lia. reflexivity.
    - destruct rest; injection H as <-; [right; apply step_m_sent_all | left; reflexivity].
    - destruct (length q0 <? n) eqn:Hlt; [|discriminate H]. injection H as <-. right.
      apply step_m_send, Nat.ltb_lt, Hlt.
    - injection H as <-. right. apply step_m_close.
    - injection H as <-. right. apply step_m_start_status.
    - injection H as <-. right. apply step_m_start_closer.
    - destruct q1 as [|f r]; [destruct (fl1 g2) eqn:F; [|discriminate H]|]; injection H as <-; right.
      + apply step_m_done, F.
      + apply step_m_collect.
    - destruct (sdead g1) eqn:F; [|discriminate H]. injection H as <-. right. unfold absd, stof. cbn.
      replace (sabs g1) with GExited by (destruct g1 as [[[] ?]|]; try discriminate F; reflexivity).
      apply step_m_join.
    - discriminate H.
  Qed.

  Theorem dstep_sim : forall d d', wfd d -> dstep d d' -> wfd d' /\ sim (absd d) (absd d').
  Proof.
    intros d d' W H. destruct H.
    - split; [eapply mnext_wf | apply mnext_abs; [apply W|]]; eassumption.
    - split; [eapply wnext_wf; eassumption|]. rewrite !absd_worker.
      apply wnext_abs; [exact (Forall_elt _ _ _ (wf_ok _ W)) | assumption].
    - apply snext_sim; assumption.
    - apply cnext_sim; assumption.
  Qed.

  Notation dstar := (rtc dstep).

  Lemma dstar_wfd : forall d d', dstar d d' -> wfd d -> wfd d'.
  Proof.
    intros d d' H. induction H as [d | a b c Hs H IH]; intros W; [exact W|].
    exact (IH (proj1 (dstep_sim a b W Hs))).
  Qed.

  Definition spawned (p : mpc) : bool :=
    match p with M_loop | M_times _ | M_go _ => false | _ => true end.

  Lemma spawn_rest : forall k c ws g1 g2 D,
    dstar (Ds (M_times k) c ws g1 g2 D) (Ds M_foreach c (ws ++ repeat W0 k) g1 g2 D).
  Proof.
    induction k as [|k IH]; intros c ws g1 g2 [q0 q1 q2 q3 mg skp].
    - cbn [repeat]. rewrite app_nil_r. apply rtc_one, dstep_main. reflexivity.
    - do 2 (eapply rtc_cons; [apply dstep_main; reflexivity|]).
      replace (ws ++ repeat W0 (S k)) with ((ws ++ [W0]) ++ repeat W0 k) by (rewrite <- app_assoc; reflexivity).
      apply IH.
  Qed.

  (* the rest of the spawn loop is invisible: [absd] shows the workers still to come at Recv *)
  Lemma spawn_all : forall d, nworkers (d_pc d) (length (d_ws d)) ->
    exists d', dstar d d' /\ absd d' = absd d /\ d_g1 d' = d_g1 d /\
               length (d_ws d') = w /\ spawned (d_pc d') = true.
  Proof.
    intros [p c ws g1 g2 D] W1. cbn [d_pc d_ws] in W1.
    destruct (spawned p) eqn:Hs.
    { exists (Ds p c ws g1 g2 D). split; [apply rtc_refl|]. repeat split; [|exact Hs].
      destruct p; try discriminate Hs; exact W1. }
    assert (E : exists k, length ws + k = w /\ dstar (Ds p c ws g1 g2 D) (Ds M_foreach c (ws ++ repeat W0 k) g1 g2 D)).
    { destruct D as [q0 q1 q2 q3 mg skp]. destruct p; try discriminate Hs; cbn in W1.
      - exists w. split; [lia|]. eapply rtc_cons; [apply dstep_main; reflexivity | apply spawn_rest].
      - exists k. split; [exact W1 | apply spawn_rest].
      - exists (S k). split; [lia|]. eapply rtc_cons; [apply dstep_main; reflexivity|].
        replace (ws ++ repeat W0 (S k)) with ((ws ++ [W0]) ++ repeat W0 k) by (rewrite <- app_assoc; reflexivity).
        apply spawn_rest. }
    destruct E as [k [Hk E]]. exists (Ds M_foreach c (ws ++ repeat W0 k) g1 g2 D).
    split; [exact E|]. split; [|repeat split; cbn [d_ws]; rewrite app_length, repeat_length; exact Hk].
    unfold absd. rewrite map_app, app_length, repeat_length, <- app_assoc.
    replace (w - (length ws + k)) with 0 by lia. replace (w - length ws) with k by lia. rewrite app_nil_r.
    rewrite map_repeat. change (wabs W0) with Recv.
    destruct p; try discriminate Hs; reflexivity.
  Qed.

  Definition meach (l : list nat) (c : nat) : mpc * nat :=
    match l with [] => (M_each [], c) | f :: r => (M_send r, f) end.
  Definition mnorm (p : mpc) (c : nat) : mpc * nat :=
    match p with
    | M_foreach => meach files c
    | M_each l => meach l c
    | M_make4 => (M_go1, c)
    | M_range | M_hook => (M_krange, c)
    | M_ret => (M_dead, c)
    | _ => (p, c)
    end.

  Lemma mnorm_star : forall p c ws g1 g2 D,
    dstar (Ds p c ws g1 g2 D) (Ds (fst (mnorm p c)) (snd (mnorm p c)) ws g1 g2 D).
  Proof.
    intros p c ws g1 g2 [q0 q1 q2 q3 mg skp].
    assert (He : forall l, dstar (Ds (M_each l) c ws g1 g2 (Dt q0 q1 q2 q3 mg skp))
                             (Ds (fst (meach l c)) (snd (meach l c)) ws g1 g2 (Dt q0 q1 q2 q3 mg skp))).
    { intros [|f r]; [apply rtc_refl | apply rtc_one, dstep_main; reflexivity]. }
    destruct p; cbn [mnorm fst snd]; try apply rtc_refl; try apply He.
    1: eapply rtc_cons; [apply dstep_main; reflexivity | apply He].
    all: apply rtc_one, dstep_main; reflexivity.
  Qed.

  Definition wnorm (x : wst) : wst :=
    let '(q, c) := x in
    match q with
    | W_start => (W_range, c)
    | W_hook => (W_s1, c)
    | W_rd => if fails "readFile" c then x else (W_ps, c)
    | W_done | W_end => (W_dead, c)
    | _ => x
    end.

  Lemma wnorm_star : forall p c a x b g1 g2 D,
    dstar (Ds p c (a ++ x :: b) g1 g2 D) (Ds p c (a ++ wnorm x :: b) g1 g2 D).
  Proof.
    intros p c a [q cu] b g1 g2 [q0 q1 q2 q3 mg skp]. destruct q; cbn [wnorm]; try apply rtc_refl.
    3: (* W_rd *) destruct (fails "readFile" cu) eqn:F; [apply rtc_refl|].
    4: (* W_done: two steps *) eapply rtc_cons; [apply dstep_worker; reflexivity|].
    all: apply rtc_one, dstep_worker; cbn; rewrite ?F; reflexivity.
  Qed.

  Lemma wabs_wnorm : forall x, wabs (wnorm x) = wabs x.
  Proof. intros [[] cu]; cbn; try destruct (fails "readFile" cu); reflexivity. Qed.

  Lemma wnorm_all : forall p c g1 g2 D ws a,
    dstar (Ds p c (a ++ ws) g1 g2 D) (Ds p c (a ++ map wnorm ws) g1 g2 D).
  Proof.
    induction ws as [|x ws IH]; intros a; [apply rtc_refl|].
    eapply rtc_trans; [apply wnorm_star|]. specialize (IH (a ++ [wnorm x])).
    rewrite <- !app_assoc in IH. exact IH.
  Qed.

  Definition snorm (x : sst) : sst :=
    match fst x with S_ret | S_dead => x | _ => (S_select, snd x) end.

  Lemma snorm_star : forall p c ws x g2 D,
    dstar (Ds p c ws (Some x) g2 D) (Ds p c ws (Some (snorm x)) g2 D).
  Proof.
    intros p c ws [q cu] g2 [q0 q1 q2 q3 mg skp]. destruct q; cbn [snorm fst snd]; try apply rtc_refl.
    all: repeat (eapply rtc_cons; [apply dstep_status; left; reflexivity|]); apply rtc_refl.
  Qed.

  Lemma absd_full : forall p c (ws : list wst) g1 g2 D, length ws = w ->
    absd (Ds p c ws g1 g2 D) = stof (mabs p c) (past_close_m p) (map wabs ws) (sabs g1) (cabs g2) D.
  Proof.
    intros. unfold absd. rewrite H, Nat.sub_diag. cbn [repeat]. rewrite app_nil_r. reflexivity.
  Qed.

  Lemma main_match : forall p c ws g1 g2 D, spawned p = true ->
    main_steps n (absd (Ds p c ws g1 g2 D)) =
    map absd (olist (mnext (Ds (fst (mnorm p c)) (snd (mnorm p c)) ws g1 g2 D))).
  Proof.
    intros p c ws g1 g2 [q0 q1 q2 q3 mg skp] Hs.
    assert (He : forall l, main_steps n (absd (Ds (M_each l) c ws g1 g2 (Dt q0 q1 q2 q3 mg skp))) =
              map absd (olist (mnext (Ds (fst (meach l c)) (snd (meach l c)) ws g1 g2 (Dt q0 q1 q2 q3 mg skp))))).
    (* [unfold file]: Pool.v computes its guards over [list file], the description over [list nat] *)
    { intros [|f r]; cbn; unfold file; [|destruct (length q0 <? n)]; reflexivity. }
    destruct p; try discriminate Hs; try exact (He _); cbn; try reflexivity.
    (* M_range, M_krange and M_hook stand for the head of the collection loop *)
    all: try (unfold fl1; destruct q1; [destruct (rclosed_c (cabs g2))|]; reflexivity).
    destruct g1 as [[[] cu]|]; reflexivity.
  Qed.

  Lemma mnext_uncommitted : forall d d', mnext d = Some d' ->
    committed (d_g1 d) = false -> committed (d_g1 d') = false.
  Proof.
    intros [p c ws g1 g2 [q0 q1 q2 q3 mg skp]] d' H U. destruct p; cbn in H.
    all: branches H; injection H as <-; try exact U; reflexivity.
  Qed.

  (* [worker_steps_at] takes the workers from l1, x, l2 and ignores those of the state: wk0 is arbitrary *)
  Lemma worker_match : forall m fc wk0 l1 (x : wst) l2 st co D, wok (wnorm x) ->
    worker_steps_at n w readable (stof m fc wk0 st co D) l1 (wabs x) l2 =
    map (fun xD : wst * data => stof m fc (l1 ++ wabs (fst xD) :: l2) st co (snd xD))
        (olist (wnext fc (wnorm x) D)).
  Proof.
    intros m fc wk0 l1 [q cu] l2 st co [q0 q1 q2 q3 mg skp] Hok. unfold readable, stof.
    destruct q; cbn in Hok |- *; unfold file; try reflexivity.
    - destruct q0; [destruct fc|]; reflexivity.
    - destruct q0; [destruct fc|]; reflexivity.
    - destruct (length q2 <? w); cbn; rewrite ?last_length; reflexivity.
    - destruct (length q2 <? w); cbn; rewrite ?last_length; reflexivity.
    - destruct (fails "readFile" cu) eqn:F; cbn; rewrite ?F; cbn; [reflexivity|].
      destruct (fails "parser.ParseCtx" cu); reflexivity.
    - rewrite Hok. destruct (fails "parser.ParseCtx" cu); reflexivity.
    - destruct (length q2 <? w); cbn; rewrite ?last_length; reflexivity.
    - destruct (length q2 <? w); cbn; rewrite ?last_length; reflexivity.
    - destruct (length q1 <? n); reflexivity.
    - destruct (length q3 <? n); cbn; rewrite ?last_length; reflexivity.
  Qed.

  Lemma exited_wnorm : forall ws, forallb is_exited (map wabs ws) = true -> pendings (map wnorm ws) = 0.
  Proof.
    induction ws as [|[q cu] ws IH]; intros H; [reflexivity|]. cbn [map forallb] in H.
    apply andb_true_iff in H. destruct H as [Hx H]. cbn [map].
    change (pendings (?x :: ?l)) with (wpend (fst x) + pendings l). rewrite (IH H).
    destruct q; try discriminate Hx; reflexivity.
  Qed.

  Definition matched (d : desc) (t : state) : Prop :=
    exists d', dstar d d' /\ committed (d_g1 d') = false /\ absd d' = t.

  Lemma matched_step : forall d d1 d' t,
    dstar d d1 -> dstep d1 d' -> committed (d_g1 d') = false -> absd d' = t -> matched d t.
  Proof.
    intros d d1 d' t S1 H U A. exists d'. split; [|split; assumption].
    eapply rtc_trans; [exact S1 | apply rtc_one, H].
  Qed.

  Lemma complete_main : forall p c ws g1 g2 D t, spawned p = true -> committed g1 = false ->
    In t (main_steps n (absd (Ds p c ws g1 g2 D))) -> matched (Ds p c ws g1 g2 D) t.
  Proof.
    intros p c ws g1 g2 D t Hs U H. rewrite main_match in H by exact Hs.
    apply in_map_iff in H. destruct H as [d' [A H]]. apply in_olist in H.
    exact (matched_step _ _ _ _ (mnorm_star p c ws g1 g2 D) (dstep_main _ _ H) (mnext_uncommitted _ _ H U) A).
  Qed.

  Lemma complete_worker : forall p c ws g1 g2 D t, wfd (Ds p c ws g1 g2 D) -> length ws = w ->
    committed g1 = false -> In t (worker_steps n w readable (absd (Ds p c ws g1 g2 D))) ->
    matched (Ds p c ws g1 g2 D) t.
  Proof.
    intros p c ws g1 g2 D t W Hl U H. rewrite absd_full in H by exact Hl.
    apply in_flat_map in H. destruct H as [[[l1 y] l2] [Hin H]]. apply splits_spec in Hin. cbn [wk stof] in Hin.
    apply map_eq_app in Hin. destruct Hin as (a & r & -> & <- & Hr).
    apply map_eq_cons in Hr. destruct Hr as (x & b & -> & <- & <-).
    pose proof (wnorm_star p c a x b g1 g2 D) as S1.
    rewrite worker_match in H by exact (Forall_elt _ _ _ (wf_ok _ (dstar_wfd _ _ S1 W))).
    apply in_map_iff in H. destruct H as [[x' D'] [A H]]. apply in_olist in H.
    apply (matched_step _ _ (Ds p c (a ++ x' :: b) g1 g2 D') _ S1 (dstep_worker _ _ _ _ _ _ _ _ _ _ H) U).
    rewrite absd_full by (rewrite app_length in *; exact Hl). rewrite map_app. exact A.
  Qed.

  Ltac sgo := eapply rtc_cons; [apply dstep_status; cbn; rewrite ?in_app_iff; cbn; auto|].

  (* an exit of Pool.v's status updater is two steps of the program: the select that sees the closed and
     drained channel, which commits, and the return *)
  Lemma complete_status : forall p c ws g1 g2 D t, committed g1 = false ->
    In t (status_steps (absd (Ds p c ws g1 g2 D))) -> matched (Ds p c ws g1 g2 D) t.
  Proof.
    intros p c ws g1 g2 [q0 q1 q2 q3 mg skp] t U H. unfold absd, stof, status_steps in H.
    destruct g1 as [x|]; [|destruct H].
    assert (Hx : sabs (Some x) = GRunning -> snorm x = (S_select, snd x)).
    { intros E. destruct x as [[] cu]; try discriminate U; try discriminate E; reflexivity. }
    destruct (sabs (Some x)) eqn:Ex; try destruct H. cbn [d_q0 d_q1 d_q2 d_q3 d_mg d_skp] in H.
    specialize (Hx eq_refl). destruct x as [q cu]. cbn [snd] in Hx.
    pose proof (snorm_star p c ws (q, cu) g2 (Dt q0 q1 q2 q3 mg skp)) as S1. rewrite Hx in S1.
    rewrite !in_app_iff in H. destruct H as [H | [H | [H | H]]].
    - destruct q2 as [|y r]; cbn in H; [destruct H|]. destruct H as [<-|[]].
      exists (Ds p c ws (Some (S_if, y)) g2 (Dt q0 q1 r q3 mg skp)). split; [|split; reflexivity].
      eapply rtc_trans; [exact S1|]. sgo. apply rtc_refl.
    - destruct q3 as [|y r]; cbn in H; [destruct H|]. destruct H as [<-|[]].
      exists (Ds p c ws (Some (S_if, y)) g2 (Dt q0 q1 q2 r mg skp)). split; [|split; reflexivity].
      eapply rtc_trans; [exact S1|]. sgo. apply rtc_refl.
    - destruct q2; cbn in H; [|destruct H]. destruct (sclosed_c (cabs g2)) eqn:F; [|destruct H]. destruct H as [<-|[]].
      exists (Ds p c ws (Some (S_dead, cu)) g2 (Dt q0 q1 [] q3 mg skp)). split; [|split; reflexivity].
      eapply rtc_trans; [exact S1|]. sgo; [unfold fl2; rewrite F; cbn; auto|]. sgo. apply rtc_refl.
    - destruct q3; cbn in H; [|destruct H]. destruct (pclosed_c (cabs g2)) eqn:F; [|destruct H]. destruct H as [<-|[]].
      exists (Ds p c ws (Some (S_dead, cu)) g2 (Dt q0 q1 q2 [] mg skp)). split; [|split; reflexivity].
      eapply rtc_trans; [exact S1|]. sgo; [unfold fl3; rewrite F; right; left; reflexivity|]. sgo. apply rtc_refl.
  Qed.

  Lemma complete_closer : forall p c ws g1 g2 D t, length ws = w -> committed g1 = false ->
    In t (closer_steps (absd (Ds p c ws g1 g2 D))) -> matched (Ds p c ws g1 g2 D) t.
  Proof.
    intros p c ws g1 g2 D t Hl U H. rewrite absd_full in H by exact Hl. unfold stof in H. cbn in H.
    assert (Hq : forall q q', cnext q ws = Some q' ->
              stof (mabs p c) (past_close_m p) (map wabs ws) (sabs g1) (cabs (Some q')) D = t ->
              matched (Ds p c ws g1 (Some q) D) t).
    { intros q q' E A. rewrite <- absd_full in A by exact Hl.
      exact (matched_step _ _ _ _ (rtc_refl _) (dstep_closer _ _ _ _ _ _ _ E) U A). }
    destruct g2 as [[]|]; cbn in H; try contradiction.
    - (* the workers that have left their loop first call wg.Done() *)
      destruct (forallb is_exited (map wabs ws)) eqn:Hall; [|destruct H]. destruct H as [<-|[]].
      apply (matched_step _ (Ds p c (map wnorm ws) g1 (Some C_c1) D) (Ds p c (map wnorm ws) g1 (Some C_c2) D));
        [|apply dstep_closer; reflexivity | exact U |].
      + eapply rtc_trans; [apply (wnorm_all p c g1 (Some C_wait) D ws [])|]. apply rtc_one, dstep_closer.
        unfold cnext, wgof. rewrite map_length, Hl, Nat.sub_diag, (exited_wnorm ws Hall). reflexivity.
      + rewrite absd_full by (rewrite map_length; exact Hl). rewrite map_map, (map_ext _ _ wabs_wnorm). reflexivity.
    - destruct (forallb is_exited (map wabs ws)); [|destruct H]. destruct H as [<-|[]]. eapply Hq; reflexivity.
    - destruct H as [<-|[]]. eapply Hq; reflexivity.
    - destruct H as [<-|[]]. eapply Hq; reflexivity.
  Qed.

  Theorem complete_d : forall d t, wfd d -> committed (d_g1 d) = false -> pstep (absd d) t -> matched d t.
  Proof.
    intros di t Wi Ui H. destruct (spawn_all di (wf_nw _ Wi)) as [d [S0 [A0 [G0 [Hl Hs]]]]].
    rewrite <- A0 in H. rewrite <- G0 in Ui. pose proof (dstar_wfd _ _ S0 Wi) as W.
    enough (matched d t) as [d' [S' R]] by (exists d'; split; [eapply rtc_trans; eassumption | exact R]).
    destruct d as [p c ws g1 g2 D]. cbn [d_pc d_ws d_g1] in *.
    apply enabled_steps_iff in H. unfold enabled_steps in H. rewrite !in_app_iff in H.
    destruct H as [H | [H | [H | H]]].
    - apply complete_main; assumption.
    - apply complete_worker; assumption.
    - apply complete_status; assumption.
    - apply complete_closer; assumption.
  Qed.

  Fixpoint pre (j : nat) : sk :=
    match j with
    | 0 => sk_init PROG
    | S j' => hd (sk_init PROG) (sk_steps PROG files fails (pre j'))
    end.

  Definition d0 : desc := Ds M_loop 0 [] None None (Dt [] [] [] [] [] []).

  (* no statement of the prologue branches on [v], [files] or [fails] ([length files] and
     [dec_val 0 v] are only stored), so each of its steps is decided by evaluation with these left
     as variables *)
  Lemma pre_facts : forall j, j < NPRE ->
    sk_steps PROG files fails (pre j) = [pre (S j)] /\ abs files w (pre j) = absd d0 /\
    s_panic (pre j) = false /\ flags_agree (pre j) = true /\ finished (pre j) = false.
  Proof.
    apply Forall_seq_lt. cbn [seq].
    repeat (apply Forall_cons; [repeat apply conj; vm_compute; reflexivity|]). apply Forall_nil.
  Qed.

  Lemma pre_end : pre NPRE = conc d0.
  Proof.
    unfold conc, d0, wgof. change (pendings []) with 0. change (length (@nil wst)) with 0.
    rewrite Nat.sub_0_r, Nat.add_0_r. cbv -[dec_val]. rewrite Hv. reflexivity.
  Qed.

  Lemma wf_0 : wfd d0.
  Proof. constructor; try reflexivity; try discriminate. constructor. Qed.

  Lemma absd_0 : absd d0 = Pool.init files w.
  Proof. unfold absd, d0. cbn. rewrite Nat.sub_0_r. reflexivity. Qed.

  Inductive Inv : sk -> Prop :=
  | Inv_pre : forall j, j < NPRE -> Inv (pre j)
  | Inv_conc : forall d, wfd d -> Inv (conc d).

  Definition sstep_w (s s' : sk) : Prop := In s' (sk_steps PROG files fails s).

  Inductive sreach_w : sk -> Prop :=
  | sreach_init_w : sreach_w (sk_init PROG)
  | sreach_step_w : forall s s', sreach_w s -> sstep_w s s' -> sreach_w s'.

  Lemma Inv_step : forall s s', Inv s -> sstep_w s s' ->
    Inv s' /\ sim (abs files w s) (abs files w s').
  Proof.
    intros s s' HI Hs. unfold sstep_w in Hs. destruct HI as [j Hj | d W].
    - destruct (pre_facts j Hj) as (E & A & _). rewrite E in Hs. destruct Hs as [<-|[]]. rewrite A.
      destruct (Nat.eq_dec (S j) NPRE) as [->|Hn].
      + rewrite pre_end, abs_conc. split; [apply Inv_conc, wf_0 | left; reflexivity].
      + assert (Hj' : S j < NPRE) by lia. split; [apply Inv_pre, Hj' | left; apply (pre_facts _ Hj')].
    - apply (sk_steps_conc d s' W) in Hs. destruct Hs as [d' [Hd <-]].
      rewrite !abs_conc. destruct (dstep_sim d d' W Hd) as [W' S'].
      split; [apply Inv_conc, W' | exact S'].
  Qed.

  Lemma sreach_Inv_w : forall s, sreach_w s -> Inv s.
  Proof.
    intros s H. induction H as [|s s' Hr IH Hs].
    - apply (Inv_pre 0). lia.
    - apply (Inv_step s s' IH Hs).
  Qed.

  Theorem skel_abs_init_w : abs files w (sk_init PROG) = Pool.init files w.
  Proof. rewrite <- absd_0. apply (pre_facts 0). lia. Qed.

  Theorem skel_simulates_pool_w : forall s s', sreach_w s -> sstep_w s s' ->
    abs files w s' = abs files w s \/
    Pool.step (length files) w readable (abs files w s) (abs files w s').
  Proof.
    intros s s' Hr Hs. apply (Inv_step s s' (sreach_Inv_w s Hr) Hs).
  Qed.

  Theorem skel_no_panic_w : forall s, sreach_w s -> s_panic s = false.
  Proof.
    intros s Hr. destruct (sreach_Inv_w s Hr) as [j Hj | [p c ws g1 g2 D] W].
    - apply (pre_facts j Hj).
    - reflexivity.
  Qed.

  Theorem skel_flags_agree_w : forall s, sreach_w s -> flags_agree s = true.
  Proof.
    intros s Hr. destruct (sreach_Inv_w s Hr) as [j Hj | d W].
    - apply (pre_facts j Hj).
    - apply flags_agree_conc.
  Qed.

  Theorem skel_reach_pool_w : forall s, sreach_w s ->
    Pool.star (length files) w readable (Pool.init files w) (abs files w s).
  Proof.
    intros s Hr. induction Hr as [|s s' Hr IH Hs].
    - rewrite skel_abs_init_w. apply star_refl.
    - destruct (skel_simulates_pool_w s s' Hr Hs) as [E|E].
      + rewrite E. exact IH.
      + eapply star_trans; [exact IH|]. eapply star_step; [exact E | apply star_refl].
  Qed.

  (* Where the program cannot move, the status updater is not committed (it could return), so every Pool.step
     out of the abstraction would be matched (complete_d): the abstraction is terminal, and there every
     goroutine has finished (PoolFacts.inv_terminal).  A goroutine that [abs] shows as finished but that is
     still live could take its last, silent steps. *)
  Theorem skel_stuck_finished_w : forall s, sreach_w s ->
    sk_steps PROG files fails s = [] -> finished s = true.
  Proof.
    intros s Hr Hs. pose proof (skel_reach_pool_w s Hr) as Hp.
    destruct (sreach_Inv_w s Hr) as [j Hj | d W].
    { destruct (pre_facts j Hj) as [E _]. rewrite E in Hs. discriminate Hs. }
    rewrite abs_conc in Hp. apply pool_invariant in Hp.
    assert (Hn : forall d', ~ dstep d d').
    { intros d' H. apply (in_nil (a := conc d')). rewrite <- Hs.
      apply (sk_steps_conc d _ W). exists d'. split; [exact H | reflexivity]. }
    clear Hs. destruct d as [p c ws g1 g2 [q0 q1 q2 q3 mg skp]].
    assert (Hu : committed g1 = false).
    { destruct g1 as [[[] cu]|]; try reflexivity. exfalso. eapply Hn, dstep_status. left. reflexivity. }
    assert (Ht : terminal n w readable (absd (Ds p c ws g1 g2 (Dt q0 q1 q2 q3 mg skp)))).
    { intros t Ht. destruct (complete_d _ t W Hu Ht) as [d' [S' [_ E]]]. inversion S' as [|d1 d2 d3 Hd]; subst.
      - (* a Pool.step is not a self-loop: the match takes at least one step *) exact (step_irrefl Ht eq_refl).
      - exact (Hn _ Hd). }
    destruct (@inv_terminal files w readable _ Hp Ht) as (Hm & Hc & Hg & Hw & _).
    cbn in Hm, Hc, Hg, Hw. rewrite forallb_app in Hw. apply andb_true_iff in Hw. destruct Hw as [Hw _].
    unfold finished, conc. cbn [s_gors forallb]. rewrite forallb_app, !andb_true_iff. split; [|split].
    - destruct p; try discriminate Hm; [|reflexivity]. exfalso. eapply Hn, dstep_main. reflexivity.
    - apply forallb_forall. intros g Hin. apply in_map_iff in Hin. destruct Hin as [[q cu] [<- Hin]].
      rewrite forallb_forall in Hw. specialize (Hw _ (in_map wabs _ _ Hin)).
      apply in_split in Hin. destruct Hin as [l1 [l2 ->]].
      destruct q; try discriminate Hw; try reflexivity; exfalso; eapply Hn, dstep_worker; reflexivity.
    - destruct g1 as [[[] cu]|]; try discriminate Hg. destruct g2 as [[]|]; try discriminate Hc; [|reflexivity].
      exfalso. eapply Hn, dstep_closer. reflexivity.
  Qed.

  Lemma abs_merged : forall s, merged (abs files w s) = s_merged s /\ skipped (abs files w s) = s_skipped s.
  Proof. intros s. split; reflexivity. Qed.

  Lemma finished_main_done : forall s, sreach_w s -> finished s = true -> main (abs files w s) = Done.
  Proof.
    intros s Hr Hf. destruct (sreach_Inv_w s Hr) as [j Hj | [p c ws g1 g2 D] W].
    - destruct (pre_facts j Hj) as (_ & _ & _ & _ & E). rewrite E in Hf. discriminate Hf.
    - rewrite abs_conc. unfold finished, conc in Hf. cbn [s_gors forallb] in Hf.
      apply andb_true_iff in Hf. destruct Hf as [Hf _].
      destruct p; try discriminate Hf. reflexivity.
  Qed.

  (* once Initialize has returned (in particular in every finished configuration): the merged list is
     a permutation of the readable files, every file was merged or skipped, the merge order is one a
     reorder buffer with w places can produce, and the status updater has returned *)
  Theorem skel_result_w : forall s, 1 <= w -> sreach_w s -> main (abs files w s) = Done ->
    Permutation (s_merged s) (filter readable files) /\
    Permutation files (s_merged s ++ s_skipped s) /\
    buffered w [] (filter readable files) (s_merged s) /\
    status (abs files w s) = GExited.
  Proof.
    intros s Hw Hr Hd. pose proof (skel_reach_pool_w s Hr) as Hp.
    destruct (@inv_delivers files w readable _ Hw (@pool_invariant files w readable _ Hp) Hd) as [P1 P2].
    split; [exact P1 | split; [exact P2 | split]].
    - exact (@pool_orders_exact files w readable _ Hw Hp Hd).
    - exact (@pool_quiescent files w readable _ Hp Hd).
  Qed.

End SimW.

Section Sim.
  Variable files : list nat.
  Variable fails : bytes -> nat -> bool.

  Notation readable := (readable fails).

  Definition sstep (s s' : sk) : Prop := In s' (sk_steps pool_program_modelled files fails s).

  Inductive sreach : sk -> Prop :=
  | sreach_init : sreach (sk_init pool_program_modelled)
  | sreach_step : forall s s', sreach s -> sstep s s' -> sreach s'.

  Lemma sreach_5 : forall s, sreach s <-> sreach_w "5" files fails s.
  Proof.
    intros s. split; intros H; induction H as [|s s' H IH Hs].
    - exact (sreach_init_w "5" files fails).
    - exact (sreach_step_w "5" files fails s s' IH Hs).
    - exact sreach_init.
    - exact (sreach_step s s' IH Hs).
  Qed.

  Theorem skel_abs_init : abs files 5 (sk_init pool_program_modelled) = Pool.init files 5.
  Proof. exact (skel_abs_init_w "5" 5 files fails). Qed.

  Theorem skel_simulates_pool : forall s s', sreach s -> sstep s s' ->
    abs files 5 s' = abs files 5 s \/
    Pool.step (length files) 5 readable (abs files 5 s) (abs files 5 s').
  Proof. intros s s'. rewrite sreach_5. apply (skel_simulates_pool_w "5" 5 eq_refl). Qed.

  Theorem skel_no_panic : forall s, sreach s -> s_panic s = false.
  Proof. intros s. rewrite sreach_5. apply (skel_no_panic_w "5" 5 eq_refl). Qed.

  Theorem skel_flags_agree : forall s, sreach s -> flags_agree s = true.
  Proof. intros s. rewrite sreach_5. apply (skel_flags_agree_w "5" 5 eq_refl). Qed.

  Corollary skel_reachable : forall s, sreach s -> Pool.reachable files 5 readable (abs files 5 s).
  Proof. intros s. rewrite sreach_5. apply (skel_reach_pool_w "5" 5 eq_refl). Qed.

  Theorem skel_stuck_finished : forall s, sreach s ->
    sk_steps pool_program_modelled files fails s = [] -> finished s = true.
  Proof. intros s. rewrite sreach_5. apply (skel_stuck_finished_w "5" 5 eq_refl). Qed.

  Theorem skel_result : forall s, sreach s -> main (abs files 5 s) = Done ->
    Permutation.Permutation (s_merged s) (filter readable files) /\
    Permutation.Permutation files (s_merged s ++ s_skipped s) /\
    buffered 5 [] (filter readable files) (s_merged s) /\
    status (abs files 5 s) = GExited.
  Proof. intros s. rewrite sreach_5. apply (skel_result_w "5" 5 eq_refl). lia. Qed.

  Corollary skel_finished_result : forall s, sreach s -> finished s = true ->
    Permutation (s_merged s) (filter readable files) /\
    Permutation files (s_merged s ++ s_skipped s) /\
    buffered 5 [] (filter readable files) (s_merged s).
  Proof.
    intros s Hr Hf. pose proof Hr as Hw. rewrite sreach_5 in Hw.
    destruct (skel_result s Hr (finished_main_done "5" 5 eq_refl files fails s Hw Hf)) as (P1 & P2 & P3 & _). auto.
  Qed.

  (* a maximal run ends in a finished configuration with these results *)
  Corollary skel_stuck_result : forall s, sreach s ->
    sk_steps pool_program_modelled files fails s = [] ->
    finished s = true /\
    Permutation (s_merged s) (filter readable files) /\
    Permutation files (s_merged s ++ s_skipped s) /\
    buffered 5 [] (filter readable files) (s_merged s).
  Proof.
    intros s Hr Hs. pose proof (skel_stuck_finished s Hr Hs) as Hf.
    split; [exact Hf | exact (skel_finished_result s Hr Hf)].
  Qed.

  Corollary skel_finished_exactly_once : forall s, NoDup files -> sreach s -> finished s = true ->
    NoDup (s_merged s) /\ (forall f, In f (s_merged s) <-> In f files /\ readable f = true).
  Proof.
    intros s Hnd Hr Hf. destruct (skel_finished_result s Hr Hf) as [P1 _].
    exact (Permutation_filter_once readable Hnd P1).
  Qed.

  (* [skel_simulates_pool] for the program the translator extracted (gen/Tables.v) *)
  Corollary skel_simulates_pool_extracted : forall s s', sreach s ->
    In s' (sk_steps pool_program files fails s) ->
    abs files 5 s' = abs files 5 s \/
    Pool.step (length files) 5 readable (abs files 5 s) (abs files 5 s').
  Proof. rewrite pool_program_matches. exact skel_simulates_pool. Qed.
End Sim.

Print Assumptions skel_abs_init.
Print Assumptions skel_simulates_pool.
Print Assumptions skel_no_panic.
Print Assumptions skel_flags_agree.
Print Assumptions skel_stuck_finished.
Print Assumptions skel_result.
Print Assumptions skel_finished_result.
Print Assumptions skel_stuck_result.
Print Assumptions skel_finished_exactly_once.
Print Assumptions skel_simulates_pool_extracted.
Print Assumptions skel_simulates_pool_w.
Print Assumptions skel_stuck_finished_w.
