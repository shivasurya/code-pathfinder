(* The Go map keyed by identity ([gm_insert], [insert_all]; the builder's [map_insert] is the same
   function, so the facts serve the graph of one file too); order independence of the merge (C07) and
   per-file isolation (C08); file discovery finds the .java files below readable directories and
   nothing else (C08). *)
From CPF Require Import Base.ListFacts Base.Bytes Base.BytesFacts Scan.Merge.
From Coq Require Import Lia Permutation.
Open Scope bs_scope.

Section MergeFacts.
  Variables A E : Type.
  Notation lgraph := (lgraph A E).

  Definition insert_all (es : list (bytes * A)) (m : list (bytes * A)) : list (bytes * A) :=
    fold_left (fun m kv => gm_insert (fst kv) (snd kv) m) es m.

  Lemma insert_all_app a b m : insert_all (a ++ b) m = insert_all b (insert_all a m).
  Proof. apply fold_left_app. Qed.

  Lemma gm_insert_fresh k (v : A) m : ~ In k (List.map fst m) -> gm_insert k v m = m ++ [(k, v)].
  Proof.
    induction m as [|[k' v'] m IH]; intro Hn; [reflexivity|].
    cbn [gm_insert]. destruct (bytes_eqb k k') eqn:Ek.
    - apply bytes_eqb_true in Ek. subst. exfalso. apply Hn. left. reflexivity.
    - cbn [app]. f_equal. apply IH. intro Hi. apply Hn. right. exact Hi.
  Qed.

  Lemma gm_insert_keys k (v : A) m x :
    In x (List.map fst (gm_insert k v m)) <-> x = k \/ In x (List.map fst m).
  Proof.
    induction m as [|[k' v'] m IH]; cbn [gm_insert List.map fst In].
    - intuition congruence.
    - destruct (bytes_eqb k k') eqn:Ek; cbn [List.map fst In].
      + apply bytes_eqb_true in Ek. subst k'. intuition congruence.
      + rewrite IH. intuition congruence.
  Qed.

  Lemma insert_all_fresh es : forall m,
    NoDup (List.map fst m ++ List.map fst es) -> insert_all es m = m ++ es.
  Proof.
    induction es as [|[k v] es IH]; intros m Hnd; [symmetry; apply app_nil_r|].
    cbn [insert_all fold_left fst snd List.map] in *.
    rewrite gm_insert_fresh by (intro Hi; apply (NoDup_remove_2 _ _ _ Hnd), in_or_app; left; exact Hi).
    fold (insert_all es (m ++ [(k, v)])). rewrite IH, <- app_assoc; [reflexivity|].
    rewrite map_app, <- app_assoc. exact Hnd.
  Qed.

  Lemma gm_insert_in k (v : A) kv m : In kv (gm_insert k v m) -> In kv m \/ kv = (k, v).
  Proof.
    induction m as [|[k' v'] m IH]; cbn [gm_insert].
    - intros [H|[]]. right. symmetry. exact H.
    - destruct (bytes_eqb k k'); intros [H|H]; cbn [In]; auto. destruct (IH H); auto.
  Qed.

  Lemma insert_all_in kv es : forall m, In kv (insert_all es m) -> In kv m \/ In kv es.
  Proof.
    induction es as [|[k v] es IH]; intros m H; [left; exact H|].
    destruct (IH _ H) as [H1|H1]; [|right; right; exact H1].
    destruct (gm_insert_in _ _ _ _ H1) as [H2|H2]; [left; exact H2|right; left; symmetry; exact H2].
  Qed.

  Lemma gm_insert_length k (v : A) m : length (gm_insert k v m) <= S (length m).
  Proof.
    induction m as [|[k' v'] m IH]; cbn [gm_insert length]; [lia|].
    destruct (bytes_eqb k k'); cbn [length]; lia.
  Qed.

  Lemma insert_all_length es : forall m, length (insert_all es m) <= length m + length es.
  Proof.
    induction es as [|[k v] es IH]; intro m; cbn [insert_all fold_left length]; [lia|].
    pose proof (IH (gm_insert k v m)). pose proof (gm_insert_length k v m). unfold insert_all in *. cbn [fst snd]. lia.
  Qed.

  Definition keys_distinct (ls : list lgraph) : Prop := NoDup (concat (List.map (@keys A E) ls)).

  Lemma collect_from (ls : list lgraph) : forall g : lgraph,
    NoDup (List.map fst (fst g) ++ concat (List.map (@keys A E) ls)) ->
    fold_left merge1 ls g = (fst g ++ concat (List.map fst ls), snd g ++ concat (List.map snd ls)).
  Proof.
    induction ls as [|l ls IH]; intros g Hnd; cbn [fold_left List.map concat] in *.
    - rewrite !app_nil_r. destruct g; reflexivity.
    - unfold keys in Hnd at 1. rewrite app_assoc in Hnd.
      assert (Hl : fst (merge1 g l) = fst g ++ fst l) by (apply insert_all_fresh, (NoDup_app_l _ _ Hnd)).
      rewrite IH; rewrite Hl; [|rewrite map_app; exact Hnd].
      cbn [merge1 snd]. rewrite <- !app_assoc. reflexivity.
  Qed.

  Theorem collect_union (ls : list lgraph) :
    keys_distinct ls ->
    collect ls = (concat (List.map fst ls), concat (List.map snd ls)).
  Proof. intro H. exact (collect_from ls ([], []) H). Qed.

  (* C07: any two arrival orders of the same per-file graphs give the same entities and links *)
  Theorem collect_order_independent (ls ls' : list lgraph) :
    keys_distinct ls -> Permutation ls ls' ->
    Permutation (fst (collect ls)) (fst (collect ls')) /\ Permutation (snd (collect ls)) (snd (collect ls')).
  Proof.
    intros Hd Hp. assert (Hd' : keys_distinct ls').
    { unfold keys_distinct in *. rewrite <- flat_map_concat_map in *.
      exact (Permutation_NoDup (Permutation_flat_map _ Hp) Hd). }
    rewrite (collect_union ls Hd), (collect_union ls' Hd'), <- !flat_map_concat_map.
    split; apply Permutation_flat_map, Hp.
  Qed.

  (* C08: what the project graph holds for one file is exactly that file's own graph, whatever the
     other files are and wherever it arrives *)
  Theorem collect_isolation (ls1 ls2 : list lgraph) (l : lgraph) :
    keys_distinct (ls1 ++ l :: ls2) ->
    Permutation (fst (collect (ls1 ++ l :: ls2))) (fst l ++ concat (List.map fst (ls1 ++ ls2)))
    /\ Permutation (snd (collect (ls1 ++ l :: ls2))) (snd l ++ concat (List.map snd (ls1 ++ ls2))).
  Proof.
    intro Hd. rewrite (collect_union _ Hd). split.
    all: rewrite <- !flat_map_concat_map;
      exact (Permutation_flat_map _ (Permutation_sym (Permutation_middle ls1 ls2 l))).
  Qed.
End MergeFacts.

(* Without distinct identities the arrival order decides which entity survives (the defect D20
   repaired by scoping binary-expression identities to the file): *)
Example collect_order_matters :
  let a : lgraph bytes unit := ([("k", "from file A")], []) in
  let b : lgraph bytes unit := ([("k", "from file B")], []) in
  fst (collect [a; b]) <> fst (collect [b; a]).
Proof. vm_compute. discriminate. Qed.

Lemma fsnode_ind' (P : fsnode -> Prop) :
  (forall n, P (FFile n)) -> (forall n r kids, Forall P kids -> P (FDir n r kids)) -> forall n, P n.
Proof.
  intros Hf Hd. fix IH 1. intros [nm|nm r kids]; [apply Hf|]. apply Hd.
  induction kids as [|k ks IHks]; constructor; [apply IH|exact IHks].
Qed.

Fixpoint files_in (dir : bytes) (n : fsnode) : list bytes :=
  match n with
  | FFile name => [path_join dir name]
  | FDir name readable kids =>
      if readable then
        (fix go (ks : list fsnode) : list bytes :=
           match ks with [] => [] | k :: r => files_in (path_join dir name) k ++ go r end) kids
      else []
  end.

(* getFiles yields exactly the regular files with extension .java reachable through readable
   directories, at any depth, in walk order; nothing else *)
Theorem walk_java_only : forall n dir,
  walk_in dir n = filter (fun p => bytes_eqb (path_ext p) ".java") (files_in dir n).
Proof.
  induction n as [nm|nm r kids IH] using fsnode_ind'; intro dir.
  - cbn [walk_in files_in filter]. destruct (bytes_eqb _ _); reflexivity.
  - cbn [walk_in files_in]. destruct r; [|reflexivity].
    induction kids as [|k ks IHks]; [reflexivity|].
    inversion IH as [|? ? Pk Pks]; subst. rewrite filter_app, <- Pk, <- (IHks Pks). reflexivity.
Qed.
