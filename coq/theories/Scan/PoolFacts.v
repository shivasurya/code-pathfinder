(* PoolFacts.v -- proofs about the worker-pool transition system of Pool.v, for arbitrary
   [files] (n = length files, n = 0 allowed), w and [readable]; w >= 1 is assumed only where
   stated.  In the order of the file: [enabled_steps] computes exactly the successors; every
   step decreases [measure]; the invariant [pool_inv], with conservation of the files and
   the channel capacities; deadlock freedom; main returns only after the status updater has
   returned; termination of every maximal run; delivery of every readable file exactly once;
   the merge orders of complete runs are exactly those of a reorder buffer with w places
   ([buffered]); examples for n = 3, w = 2. *)

From Coq Require Import List Arith Lia Bool Permutation.
From CPF Require Import Base.ListFacts Scan.Pool.
Import ListNotations.

Set Implicit Arguments.

Lemma splits_spec : forall (A : Type) (l l1 l2 : list A) (x : A),
  In (l1, x, l2) (splits l) <-> l = l1 ++ x :: l2.
Proof.
  intros A l. induction l as [|a t IH]; intros l1 l2 x; simpl.
  - split; [intros [] | intros Heq; destruct l1; discriminate].
  - rewrite in_map_iff. split.
    + intros [Heq | [[[l1' y] l2'] [Heq Hin]]]; inversion Heq; subst; [reflexivity|].
      apply IH in Hin. subst. reflexivity.
    + intros Heq. destruct l1 as [|b l1]; inversion Heq; subst; [left; reflexivity|].
      right. exists (l1, x, l2). split; [reflexivity | apply IH; reflexivity].
Qed.

Lemma filter_cons_split : forall (A : Type) (g : A -> bool) q f qa,
  filter g q = f :: qa ->
  exists us q', q = us ++ f :: q' /\ filter g us = [] /\ g f = true /\ filter g q' = qa.
Proof.
  intros A g. induction q as [|x q IH]; intros f qa Hf; simpl in Hf; [discriminate|].
  destruct (g x) eqn:Hx.
  - inversion Hf; subst. exists [], q. auto.
  - destruct (IH f qa Hf) as [us [q' [-> [Hus [Hgf Hq']]]]].
    exists (x :: us), q'. simpl. rewrite Hx. auto.
Qed.

Lemma held_mid : forall l1 x l2, held (l1 ++ x :: l2) = held l1 ++ wheld x ++ held l2.
Proof. intros l1 x l2. apply flat_map_app. Qed.

Lemma held_all_exited : forall ws, forallb is_exited ws = true -> held ws = [].
Proof.
  induction ws as [|x t IH]; simpl; intros Hall; [reflexivity|].
  apply andb_true_iff in Hall as [Hx Ht]. destruct x; try discriminate Hx. apply IH, Ht.
Qed.

Lemma held_length_le : forall ws, length (held ws) <= length ws.
Proof.
  induction ws as [|x t IH]; simpl; [lia|].
  unfold held in *. simpl. rewrite app_length. destruct x; simpl; lia.
Qed.

Section Facts.

  Variable n : nat.
  Variable w : nat.
  Variable readable : file -> bool.

  Notation step := (step n w readable).
  Notation star := (star n w readable).
  Notation nsteps := (nsteps n w readable).
  Notation terminal := (terminal n w readable).
  Notation enabled_steps := (enabled_steps n w readable).

  (* [H : In s' l], where [l] is what one branch of [enabled_steps] computes: the one successor
     [[x]], under a guard ([if g then [x] else []]) or not, or none.  Decide the guard; then [s'] is
     [x], reached by the constructor of [step] whose premise is the guard. *)
  Ltac successor H :=
    simpl in H;
    try match type of H with In _ (if ?g then _ else _) => destruct g eqn:Hg; simpl in H end;
    try contradiction;
    destruct H as [<- | []]; constructor; try apply Nat.ltb_lt; assumption.

  Theorem enabled_steps_iff : forall s s', In s' (enabled_steps s) <-> step s s'.
  Proof.
    intros s s'. unfold Pool.enabled_steps, worker_steps. rewrite !in_app_iff, in_flat_map. split.
    - destruct s as [m q fc ws a p r st co mg sk].
      intros [H | [[[[l1 x] l2] [Hsp H]] | [H | H]]].
      + destruct m as [[|f rest]| | | | | |]; [| | | | |destruct r|destruct st|]; successor H.
      + apply splits_spec in Hsp. simpl in Hsp. subst ws.
        destruct x; [destruct q| | | | | | | |]; successor H.
      + destruct st; simpl in H; try contradiction. rewrite !in_app_iff in H.
        destruct a, p, H as [H | [H | [H | H]]]; successor H.
      + destruct co; successor H.
    - (* the constructors of [step] in the order of Pool.v: 8 of main, 10 of a worker, 4 of the
         status updater, 3 of the closer *)
      intros Hstep. destruct Hstep; try apply Nat.ltb_lt in H.
      1-8: left.
      9-18: right; left; eexists (l1, _, l2); (split; [apply splits_spec; reflexivity|]).
      19-22: right; right; left.
      23-25: right; right; right.
      all: simpl; rewrite ?H; simpl; rewrite ?in_app_iff; simpl; auto 10.
  Qed.

  Lemma step_measure : forall s s', step s s' -> measure s' < measure s.
  Proof.
    intros s s' Hstep. destruct Hstep; unfold measure; cbn -[Nat.mul list_sum]; unfold fweight;
      rewrite ?list_sum_mid, ?app_length; cbn -[Nat.mul list_sum]; lia.
  Qed.

  Lemma step_irrefl : forall s s', step s s' -> s <> s'.
  Proof. intros s s' Hstep <-. apply step_measure in Hstep. lia. Qed.

  Lemma nsteps_measure : forall k s s', nsteps k s s' -> k + measure s' <= measure s.
  Proof.
    intros k s s' Hns. induction Hns as [s | k s1 s2 s3 Hstep Hns IH].
    - lia.
    - apply step_measure in Hstep. lia.
  Qed.

  Lemma step_wf : forall s, Acc (fun s2 s1 => step s1 s2) s.
  Proof. exact (well_founded_lt_compat _ measure _ (fun s2 s1 H => step_measure H)). Qed.

  Lemma no_infinite_run : forall tr : nat -> state,
    (forall i, step (tr i) (tr (S i))) -> False.
  Proof.
    intros tr Hrun.
    assert (H : forall s, Acc (fun s2 s1 => step s1 s2) s -> forall i, tr i <> s).
    { induction 1 as [s _ IH]. intros i <-. exact (IH _ (Hrun i) (S i) eq_refl). }
    exact (H _ (step_wf (tr 0)) 0 eq_refl).
  Qed.

  Lemma terminal_dec : forall s, terminal s \/ exists s', step s s'.
  Proof.
    intros s. destruct (enabled_steps s) as [|s' l] eqn:He.
    - left. intros s' Hstep. apply enabled_steps_iff in Hstep.
      rewrite He in Hstep. contradiction.
    - right. exists s'. apply enabled_steps_iff. rewrite He. left. reflexivity.
  Qed.

  Lemma star_trans : forall s1 s2 s3, star s1 s2 -> star s2 s3 -> star s1 s3.
  Proof.
    intros s1 s2 s3 H12. induction H12 as [s | a b c Hstep H12 IH]; intros H23.
    - assumption.
    - eapply star_step; [eassumption|]. apply IH. assumption.
  Qed.

  Lemma star_inv : forall P : state -> Prop, (forall s s', step s s' -> P s -> P s') ->
    forall s s', star s s' -> P s -> P s'.
  Proof. intros P HP s s' Hstar. induction Hstar as [s | s1 s2 s3 Hstep _ IH]; eauto. Qed.

  Lemma reaches_terminal : forall s, exists s', star s s' /\ terminal s'.
  Proof.
    intros s. induction (step_wf s) as [s _ IH].
    destruct (terminal_dec s) as [Ht | [s1 Hs1]].
    - exists s. split; [apply star_refl | assumption].
    - destruct (IH s1 Hs1) as [s' [Hstar Ht]].
      exists s'. split; [eapply star_step; eassumption | assumption].
  Qed.

  (* maximal runs as partial sequences: defined on an initial segment of the indices, ending only in a
     state without successor *)
  Definition is_run (tr : nat -> option state) : Prop :=
    forall i, match tr i, tr (S i) with
              | Some s1, Some s2 => step s1 s2
              | Some s1, None => terminal s1
              | None, Some _ => False
              | None, None => True
              end.

  Lemma run_ends : forall m tr s0, measure s0 <= m -> is_run tr -> tr 0 = Some s0 ->
    exists k s, k <= m /\ tr k = Some s /\ tr (S k) = None /\ star s0 s /\ terminal s.
  Proof.
    induction m as [|m IH]; intros tr s0 Hm Hrun H0;
      pose proof (Hrun 0) as Hr; rewrite H0 in Hr;
      (destruct (tr 1) as [s1|] eqn:H1;
       [pose proof (step_measure Hr) as Hlt
       | exists 0, s0; repeat split; auto using star_refl; lia]).
    - lia.
    - (* the rest of the run is a maximal run from [s1] *)
      destruct (IH (fun i => tr (S i)) s1) as (k & s & Hk & Hs & Hnone & Hstar & Ht);
        [lia | exact (fun i => Hrun (S i)) | exact H1 |].
      exists (S k), s. repeat split; auto; [lia | eapply star_step; eassumption].
  Qed.

  Lemma all_finished_terminal : forall s, main s = Done -> status s = GExited ->
    closer s = CFired -> forallb is_exited (wk s) = true -> terminal s.
  Proof.
    intros s Hm Hg Hc Hw s' Hstep. destruct Hstep; simpl in *; try discriminate.
    all: rewrite forallb_app in Hw; simpl in Hw; rewrite andb_false_r in Hw; discriminate.
  Qed.

  Lemma step_wk_len : forall s s', step s s' -> length (wk s') = length (wk s).
  Proof. intros s s' H. destruct H; simpl; rewrite ?app_length; reflexivity. Qed.

  Lemma step_all_files : forall s s', step s s' -> Permutation (all_files s) (all_files s').
  Proof.
    intros s s' H. destruct H; unfold all_files, held; simpl;
      rewrite ?flat_map_app, <- ?app_assoc; simpl; try reflexivity.
    all: rewrite <- !Permutation_middle; reflexivity.
  Qed.

  (* statusChan grows only by a worker that holds a file, and then only if there is room *)
  Lemma step_sq : forall s s', step s s' ->
    sq s' <= sq s \/ sq s < w /\ sq s' = S (sq s) /\ held (wk s) <> [].
  Proof.
    intros s s' H. destruct H; simpl; auto; right; repeat split; auto;
      rewrite held_mid; simpl; intros E; apply app_eq_nil in E as [_ E]; discriminate.
  Qed.

  (* progress items: at most one per result already sent; one is sent after a result, by a
     worker that then leaves [SendProgress] *)
  Definition pq_ok (s : state) : Prop :=
    pq s + count_sp (wk s) <= length (rq s) + length (merged s).

  Lemma step_pq : forall s s', step s s' -> pq_ok s -> pq_ok s'.
  Proof.
    intros s s' H. destruct H; unfold pq_ok, count_sp; simpl;
      rewrite ?list_sum_mid, ?app_length; simpl; lia.
  Qed.

  (* a file gets past [Read] only if it is readable, and into [skipped] only if it is not *)
  Definition readable_ok (s : state) : Prop :=
    Forall (fun f => readable f = true) (held_r (wk s) ++ rq s ++ merged s) /\
    Forall (fun f => readable f = false) (skipped s).

  Lemma step_readable : forall s s', step s s' -> readable_ok s -> readable_ok s'.
  Proof.
    intros s s' H. destruct H; unfold readable_ok, held_r; simpl;
      rewrite ?flat_map_app, <- ?app_assoc; simpl; try exact id.
    all: rewrite ?Forall_app, ?Forall_cons_iff, ?Forall_app; intuition.
  Qed.

  (* progressChan is closed last *)
  Lemma pclosed_sclosed : forall co, pclosed_c co = true -> sclosed_c co = true.
  Proof. destruct co; trivial. Qed.

  (* The control part of a state: main's program counter and the three components that only
     main, the status updater's return and the closer change.  What has been started follows
     main's program counter; the status updater returns only after statusChan was closed; main
     returns only after the status updater has returned. *)
  Definition ctl_ok (s : state) : Prop :=
    fclosed s = past_close (main s) /\
    (status s = GNotStarted <-> past_status (main s) = false) /\
    (closer s = CNotStarted <-> past_closer (main s) = false) /\
    (status s = GExited -> sclosed s = true) /\
    (main s = Done -> status s = GExited).

  Lemma step_ctl : forall s s', step s s' -> ctl_ok s -> ctl_ok s'.
  Proof.
    intros s s' H. destruct H; try exact id; unfold ctl_ok, sclosed; simpl.
    all: try apply pclosed_sclosed in H.
    all: try solve [intuition (discriminate || congruence)].
    (* [go closer]: the status updater has not returned yet, since nothing is closed *)
    intros (Hfc & Hst & [_ Hco] & Hge & _). rewrite (Hco eq_refl) in Hge.
    intuition discriminate.
  Qed.

  (* once resultChan is closed (hence also for the two later closes) all workers have exited:
     nobody can send on a closed channel, and no worker moves any more *)
  Definition closed_exited (s : state) : Prop :=
    rclosed s = true -> forallb is_exited (wk s) = true.

  Lemma step_closed_exited : forall s s', step s s' -> closed_exited s -> closed_exited s'.
  Proof.
    intros s s' H. destruct H; unfold closed_exited, rclosed; simpl; try exact id; try discriminate; auto.
    (* what is left are the steps of a worker: it had not exited, so resultChan was open *)
    all: rewrite !forallb_app; simpl; rewrite !andb_false_r; intros IH Hc; discriminate (IH Hc).
  Qed.

  (* a worker exits only when fileChan is closed and drained; main sends before it closes *)
  Definition exited_drained (s : state) : Prop :=
    existsb is_exited (wk s) = true -> fq s = [] /\ fclosed s = true.

  Lemma step_exited_drained : forall s s', step s s' -> fclosed s = past_close (main s) ->
    exited_drained s -> exited_drained s'.
  Proof.
    intros s s' H. destruct H; unfold exited_drained; simpl; try exact (fun _ => id); rewrite ?existsb_app; simpl;
      intros Hfc IH Hx; auto; destruct (IH Hx); (discriminate || congruence || auto).
  Qed.

  (* main leaves the collection loop only on closed-and-empty, and resultChan stays closed and
     empty from then on: nobody can send *)
  Definition collected (s : state) : Prop :=
    main s = Join \/ main s = Done -> rclosed s = true /\ rq s = [].

  Lemma step_collected : forall s s', step s s' ->
    closed_exited s -> collected s -> collected s'.
  Proof.
    intros s s' H. destruct H; unfold closed_exited, collected, rclosed; simpl; try exact (fun _ => id);
      intros Hce IH Hm.
    all: try (destruct Hm; discriminate).
    all: try (destruct (IH Hm) as [Hc Hr]; split; [reflexivity || assumption | assumption]).
    - (* step_m_done: its guard *) auto.
    - (* step_m_join *) apply IH. left. reflexivity.
    - (* step_w_send_result: no worker is left to send *)
      destruct (IH Hm) as [Hc _]. apply Hce in Hc. rewrite forallb_app in Hc. simpl in Hc.
      rewrite andb_false_r in Hc. discriminate.
  Qed.

  (* a worker that has not exited is blocked only by an empty open fileChan or a full buffer *)
  Lemma worker_moves : forall m q fc l1 x l2 a p r st co mg sk,
    is_exited x = false -> q <> [] \/ fc = true -> a < w ->
    length (wheld x) + length r <= n -> is_sp x + p <= n ->
    exists s', step (St m q fc (l1 ++ x :: l2) a p r st co mg sk) s'.
  Proof.
    intros m q fc l1 x l2 a p r st co mg sk Hx Hq Ha Hr Hp.
    destruct x; try discriminate Hx; [destruct q as [|f q]| | destruct (readable f) eqn:Hf | ..];
      simpl in *.
    1: destruct Hq as [Hq | ->]; [contradiction|].
    all: eexists; constructor; (assumption || lia).
  Qed.

End Facts.

Lemma repeat_Recv : forall k,
  held (repeat Recv k) = [] /\ held_r (repeat Recv k) = [] /\
  existsb is_exited (repeat Recv k) = false /\ count_sp (repeat Recv k) = 0.
Proof. induction k as [|k IH]; simpl; auto. Qed.

Section Main.

  Variable files : list file.
  Variable w : nat.
  Variable readable : file -> bool.

  Notation n := (length files).
  Notation step := (step n w readable).
  Notation star := (star n w readable).
  Notation nsteps := (nsteps n w readable).
  Notation terminal := (terminal n w readable).
  Notation reachable := (reachable files w readable).

  Record pool_inv (s : state) : Prop := {
    inv_wk_len : length (wk s) = w;
    inv_cons : Permutation files (all_files s);
    inv_readable : readable_ok readable s;
    inv_ctl : ctl_ok s;
    inv_closed_exited : closed_exited s;
    inv_exited_drained : exited_drained s;
    inv_collected : collected s;
    (* statusChan stays within its capacity, and empty when there are no files (what
       [pool_no_items_when_no_files] needs) *)
    inv_sq : sq s <= w /\ (files = [] -> sq s = 0);
    inv_pq : pq_ok s
  }.

  Theorem pool_inv_init : pool_inv (init files w).
  Proof.
    destruct (repeat_Recv w) as (Hh & Hr & He & Hc).
    constructor; unfold all_files, readable_ok, ctl_ok, closed_exited, exited_drained, collected,
      pq_ok, rclosed, sclosed; simpl;
      rewrite ?Hh, ?Hr, ?He, ?Hc, ?repeat_length, ?app_nil_r; simpl;
      auto; intuition (discriminate || lia).
  Qed.

  Lemma inv_lengths : forall s, pool_inv s ->
    length (rest_of (main s)) + length (fq s) + length (held (wk s))
    + length (rq s) + length (merged s) + length (skipped s) = n.
  Proof.
    intros s Hinv. pose proof (Permutation_length (inv_cons Hinv)) as Hl.
    unfold all_files in Hl. rewrite !app_length in Hl. lia.
  Qed.

  Theorem pool_inv_step : forall s s', step s s' -> pool_inv s -> pool_inv s'.
  Proof.
    intros s s' Hstep Hinv. pose proof (inv_lengths Hinv) as Hl.
    destruct Hinv as [Hlen Hcons Hrd Hctl Hce Hef Hpc [Hsq Hnf] Hpq].
    constructor.
    - rewrite (step_wk_len Hstep). exact Hlen.
    - exact (Permutation_trans Hcons (step_all_files Hstep)).
    - exact (step_readable Hstep Hrd).
    - exact (step_ctl Hstep Hctl).
    - exact (step_closed_exited Hstep Hce).
    - exact (step_exited_drained Hstep (proj1 Hctl) Hef).
    - exact (step_collected Hstep Hce Hpc).
    - destruct (step_sq Hstep) as [Hle | (Hlt & He & Hne)].
      + split; [lia | intros Hf; specialize (Hnf Hf); lia].
      + split; [lia | intros Hf]. destruct (held (wk s)); [contradiction|].
        rewrite Hf in Hl. simpl in Hl. lia.
    - exact (step_pq Hstep Hpq).
  Qed.

  Theorem pool_invariant : forall s, reachable s -> pool_inv s.
  Proof. intros s Hr. exact (star_inv pool_inv pool_inv_step Hr pool_inv_init). Qed.

  Theorem pool_conservation : forall s, reachable s ->
    Permutation files
      (rest_of (main s) ++ fq s ++ held (wk s) ++ rq s ++ merged s ++ skipped s).
  Proof. intros s Hr. exact (inv_cons (pool_invariant Hr)). Qed.

  Theorem pool_exactly_one_place : forall s, NoDup files -> reachable s ->
    NoDup (rest_of (main s) ++ fq s ++ held (wk s) ++ rq s ++ merged s ++ skipped s)
    /\ forall f, In f files <->
         In f (rest_of (main s) ++ fq s ++ held (wk s) ++ rq s ++ merged s ++ skipped s).
  Proof. intros s Hnd Hr. exact (Permutation_NoDup_In Hnd (pool_conservation Hr)). Qed.

  Theorem pool_capacities : forall s, reachable s ->
    length (fq s) <= n /\ length (rq s) <= n /\ pq s <= n /\ sq s <= w.
  Proof.
    intros s Hr. pose proof (pool_invariant Hr) as Hinv. pose proof (inv_lengths Hinv) as Hl.
    pose proof (inv_pq Hinv) as Hp. pose proof (proj1 (inv_sq Hinv)) as Hs.
    unfold pq_ok in Hp. lia.
  Qed.

  (* the sends on the capacity-n channels are never blocked, and nobody is ever
     in a sending position on a closed channel *)
  Theorem pool_sends_never_block : forall s, reachable s ->
    (forall f rest, main s = Sending (f :: rest) ->
       length (fq s) < n /\ fclosed s = false) /\
    (forall l1 f l2, wk s = l1 ++ SendResult f :: l2 ->
       length (rq s) < n /\ rclosed s = false) /\
    (forall l1 f l2, wk s = l1 ++ SendProgress f :: l2 ->
       pq s < n /\ pclosed s = false) /\
    (forall l1 x l2, wk s = l1 ++ x :: l2 -> is_exited x = false ->
       sclosed s = false).
  Proof.
    intros s Hr. pose proof (pool_invariant Hr) as Hinv. pose proof (inv_lengths Hinv) as Hl.
    pose proof (inv_pq Hinv) as Hp.
    assert (Hopen : forall l1 x l2, wk s = l1 ++ x :: l2 -> is_exited x = false ->
              rclosed s = false /\ sclosed s = false /\ pclosed s = false).
    { intros l1 x l2 Hw Hx. pose proof (inv_closed_exited Hinv) as Hce. unfold closed_exited in Hce.
      rewrite Hw, forallb_app in Hce. simpl in Hce. rewrite Hx, andb_false_r in Hce.
      unfold rclosed, sclosed, pclosed in *.
      destruct (closer s); auto; discriminate (Hce eq_refl). }
    split; [|split; [|split]].
    - intros f rest Hm. destruct (inv_ctl Hinv) as [Hf _]. rewrite Hm in *. simpl in *.
      split; [lia | exact Hf].
    - intros l1 f l2 Hw. split; [|exact (proj1 (Hopen _ _ _ Hw eq_refl))].
      rewrite Hw, held_mid, !app_length in Hl. simpl in Hl. lia.
    - intros l1 f l2 Hw. split; [|exact (proj2 (proj2 (Hopen _ _ _ Hw eq_refl)))].
      unfold pq_ok, count_sp in Hp. rewrite Hw, list_sum_mid in Hp. simpl in Hp. lia.
    - intros l1 x l2 Hw Hx. exact (proj1 (proj2 (Hopen _ _ _ Hw Hx))).
  Qed.

  (* n = 0: the status updater never receives an item, so the
     [(progress*100)/totalFiles] after the select is never evaluated *)
  Theorem pool_no_items_when_no_files : forall s, reachable s ->
    files = [] -> sq s = 0 /\ pq s = 0.
  Proof.
    intros s Hr Hf. destruct (pool_capacities Hr) as (_ & _ & Hp & _).
    pose proof (proj2 (inv_sq (pool_invariant Hr)) Hf) as Hs.
    rewrite Hf in Hp. simpl in Hp. lia.
  Qed.

  Lemma inv_progress : forall s, pool_inv s -> main s <> Done -> exists s', step s s'.
  Proof.
    intros s Hinv Hnd. pose proof (inv_lengths Hinv) as Hl.
    destruct Hinv as [Hlen _ _ (Hfc & Hst & Hco & Hge & _) _ _ Hpc _ Hpq].
    destruct s as [m q fc ws a p r st co mg sk]. unfold rclosed, sclosed in *. simpl in *.
    destruct m as [[|f rest]| | | | | |]; simpl in *.
    1-5: eexists; constructor; lia.
    - destruct r as [|f r]; [|eexists; apply step_m_collect].
      destruct (rclosed_c co) eqn:Hrc; [eexists; apply step_m_done; assumption|].
      (* resultChan is open: the closer waits, the status updater runs *)
      assert (Hcw : co = CWaiting).
      { destruct co; try discriminate Hrc; [|reflexivity]. discriminate (proj1 Hco eq_refl). }
      subst co.
      assert (Hrun : st = GRunning).
      { destruct st; [|reflexivity|]; [discriminate (proj1 Hst eq_refl) | discriminate (Hge eq_refl)]. }
      subst st.
      destruct (forallb_or_split is_exited ws) as [Hall | [l1 [x [l2 [-> Hx]]]]];
        [eexists; apply step_c_wait; assumption|].
      destruct a as [|a]; [|eexists; apply step_g_status].
      unfold pq_ok, count_sp in Hpq. simpl in Hpq. rewrite list_sum_mid in Hpq.
      rewrite app_length in Hlen. rewrite held_mid, !app_length in Hl. simpl in *.
      apply worker_moves; simpl; auto; lia.
    - (* Join: main waits for the status updater.  resultChan is closed, so
         the closer is past [wg.Wait()]: it performs its remaining closes, and
         once statusChan is closed the updater drains it and returns *)
      destruct Hpc as [Hrc _]; [left; reflexivity|].
      destruct st; [discriminate (proj1 Hst eq_refl) | |];
        [destruct co; try discriminate Hrc; [| |destruct a] |];
        eexists; constructor; reflexivity.
    - contradiction.
  Qed.

  Theorem pool_progress : forall s, reachable s -> main s <> Done ->
    exists s', step s s'.
  Proof. intros s Hr. exact (inv_progress (pool_invariant Hr)). Qed.

  Lemma inv_terminal : forall s, pool_inv s -> terminal s ->
    main s = Done /\ closer s = CFired /\ status s = GExited /\
    forallb is_exited (wk s) = true /\ rq s = [].
  Proof.
    intros s Hinv Hterm.
    assert (Hd : main s = Done).
    { destruct (main s) eqn:Hm; trivial; destruct (inv_progress Hinv) as [s' Hs'];
        try (rewrite Hm; discriminate); destruct (Hterm _ Hs'). }
    destruct (inv_collected Hinv (or_intror Hd)) as [Hrc Hrq].
    destruct (inv_ctl Hinv) as (_ & _ & _ & _ & Hq).
    pose proof (inv_closed_exited Hinv Hrc) as Hall. repeat split; auto.
    destruct s as [m q fc ws a p r st co mg sk]. unfold rclosed in Hrc. simpl in *.
    destruct co; try discriminate Hrc; trivial; edestruct Hterm; constructor.
  Qed.

  Theorem pool_terminal_shape : forall s, reachable s -> terminal s ->
    main s = Done /\ closer s = CFired /\ status s = GExited /\
    forallb is_exited (wk s) = true /\ rq s = [].
  Proof. intros s Hr. exact (inv_terminal (pool_invariant Hr)). Qed.

  (* main waits in [Join] for the status updater ([<-statusDone]): once [Initialize] has returned the
     progress display is silent *)
  Theorem pool_quiescent : forall s, reachable s -> main s = Done -> status s = GExited.
  Proof. intros s Hr. apply (inv_ctl (pool_invariant Hr)). Qed.

  (* nothing the caller can observe changes after the return: no step taken then touches
     main's program counter or the merged results (only [step_m_collect] changes [merged], and
     that is a step of main) *)
  Theorem pool_quiescent_forever : forall s s', reachable s -> main s = Done -> star s s' ->
    status s' = GExited /\ merged s' = merged s /\ main s' = Done.
  Proof.
    intros s s' Hr Hd Hstar.
    assert (Hs' : main s' = Done /\ merged s' = merged s).
    { eapply (star_inv (fun t => main t = Done /\ merged t = merged s)); [|exact Hstar|auto].
      intros s1 s2 Hstep [Hd1 Hm1]. destruct Hstep; simpl in *; try discriminate; auto. }
    destruct Hs' as [Hd' Hm']. split; [|split; assumption].
    apply (pool_quiescent (star_trans Hr Hstar) Hd').
  Qed.

  Theorem pool_variant : forall s s', step s s' -> measure s' < measure s.
  Proof. apply step_measure. Qed.

  Theorem pool_run_length_bound : forall k s s', nsteps k s s' -> k <= measure s.
  Proof. intros k s s' Hns. apply nsteps_measure in Hns. lia. Qed.

  Theorem pool_no_infinite_run : forall tr : nat -> state,
    (forall i, step (tr i) (tr (S i))) -> False.
  Proof. apply no_infinite_run. Qed.

  Theorem pool_step_wf : forall s, Acc (fun s2 s1 => step s1 s2) s.
  Proof. apply step_wf. Qed.

  Theorem pool_measure_init : measure (init files w) = 14 * n + w + 14.
  Proof.
    unfold measure, init. cbn -[Nat.mul list_sum]. unfold fweight.
    rewrite map_repeat, list_sum_repeat. cbn [wweight]. lia.
  Qed.

  (* every maximal run from the initial state is finite (at most
     [measure (init files w)] steps) and ends in a state with main = Done *)
  Theorem pool_terminates : forall tr : nat -> option state,
    is_run n w readable tr -> tr 0 = Some (init files w) ->
    exists k s, k <= measure (init files w) /\
                tr k = Some s /\ tr (S k) = None /\
                reachable s /\ terminal s /\ main s = Done.
  Proof.
    intros tr Hrun H0.
    destruct (run_ends (le_n _) Hrun H0) as (k & s & Hk & Hs & Hnone & Hstar & Ht).
    exists k, s. repeat split; auto. apply (pool_terminal_shape Hstar Ht).
  Qed.

  Theorem pool_can_finish : forall s, reachable s ->
    exists s', star s s' /\ terminal s' /\ main s' = Done.
  Proof.
    intros s Hr. destruct (reaches_terminal n w readable s) as [s' [Hstar Ht]].
    exists s'. split; [assumption|]. split; [assumption|].
    apply pool_terminal_shape; [|assumption].
    eapply star_trans; eassumption.
  Qed.

  (* once main has returned (and there is a worker at all) no file is under way any more *)
  Lemma inv_done_shape : forall s, 1 <= w -> pool_inv s -> main s = Done ->
    fq s = [] /\ held (wk s) = [] /\ rq s = [].
  Proof.
    intros s Hw Hinv Hd.
    destruct (inv_collected Hinv (or_intror Hd)) as [Hrc Hrq].
    pose proof (inv_closed_exited Hinv Hrc) as Hall.
    split; [|split; [apply held_all_exited, Hall | exact Hrq]].
    apply (inv_exited_drained Hinv). pose proof (inv_wk_len Hinv) as Hlen.
    destruct (wk s) as [|x t]; simpl in *; [rewrite <- Hlen in Hw; inversion Hw|].
    apply andb_true_iff in Hall as [-> _]. reflexivity.
  Qed.

  Lemma inv_delivers : forall s, 1 <= w -> pool_inv s -> main s = Done ->
    Permutation (merged s) (filter readable files) /\
    Permutation files (merged s ++ skipped s).
  Proof.
    intros s Hw Hinv Hd. destruct (inv_done_shape Hw Hinv Hd) as (Hfq & Hh & Hrq).
    pose proof (inv_cons Hinv) as Hcons. unfold all_files in Hcons.
    rewrite Hd, Hfq, Hh, Hrq in Hcons. simpl in Hcons.
    split; [|exact Hcons].
    apply (Permutation_filter readable) in Hcons. rewrite filter_app in Hcons.
    destruct (inv_readable Hinv) as [Hrd Hsk]. rewrite !Forall_app in Hrd.
    destruct Hrd as (_ & _ & Hmg).
    rewrite (filter_const readable true _ (proj1 (Forall_forall _ _) Hmg)), (filter_const readable false _ (proj1 (Forall_forall _ _) Hsk)), app_nil_r in Hcons.
    symmetry. exact Hcons.
  Qed.

  Theorem pool_delivers : forall s, 1 <= w -> reachable s -> main s = Done ->
    Permutation (merged s) (filter readable files).
  Proof. intros s Hw Hr Hd. apply (inv_delivers Hw (pool_invariant Hr) Hd). Qed.

  Theorem pool_delivers_exactly_once : forall s, 1 <= w -> NoDup files ->
    reachable s -> main s = Done ->
    NoDup (merged s) /\
    (forall f, In f (merged s) <-> In f files /\ readable f = true) /\
    Permutation files (merged s ++ skipped s).
  Proof.
    intros s Hw Hnd Hr Hd.
    destruct (inv_delivers Hw (pool_invariant Hr) Hd) as [Hp Hall].
    destruct (Permutation_filter_once readable Hnd Hp) as [Hm Hin]. auto.
  Qed.

End Main.

Theorem pool_terminal_all_finished : forall files w readable s,
  reachable files w readable s -> terminal (length files) w readable s ->
  main s = Done /\ status s = GExited /\ closer s = CFired.
Proof.
  intros files w readable s Hr Ht.
  destruct (pool_terminal_shape Hr Ht) as (Hd & Hc & Hg & _). auto.
Qed.

Print Assumptions enabled_steps_iff.
Print Assumptions pool_inv_step.
Print Assumptions pool_invariant.
Print Assumptions pool_exactly_one_place.
Print Assumptions pool_capacities.
Print Assumptions pool_sends_never_block.
Print Assumptions pool_no_items_when_no_files.
Print Assumptions pool_progress.
Print Assumptions pool_terminal_shape.
Print Assumptions pool_variant.
Print Assumptions pool_no_infinite_run.
Print Assumptions pool_measure_init.
Print Assumptions pool_terminates.
Print Assumptions pool_can_finish.
Print Assumptions pool_delivers.
Print Assumptions pool_delivers_exactly_once.

(* The reorder buffer [buffered] by itself: what it emits is a rearrangement of what it holds and takes in,
   its content is a multiset, and two conditions under which it can emit p from q -- the window condition
   and room for everything.  They give [pool_orders_window], [pool_orders_small] and [ord_step] below. *)
Lemma buffered_perm : forall w h q p, buffered w h q p -> Permutation p (h ++ q).
Proof.
  intros w h q p Hb. induction Hb as [| h f q p Hroom Hb IH | h1 f h2 q p Hb IH].
  - constructor.
  - rewrite <- app_assoc in IH. exact IH.
  - rewrite <- app_assoc in *. simpl. apply Permutation_cons_app. exact IH.
Qed.

Lemma buffered_perm_h : forall w h q p, buffered w h q p ->
  forall h', Permutation h h' -> buffered w h' q p.
Proof.
  intros w h q p Hb. induction Hb as [| h f q p Hroom Hb IH | h1 f h2 q p Hb IH];
    intros h' Hp.
  - apply Permutation_nil in Hp. subst. constructor.
  - apply buf_take.
    + apply Permutation_length in Hp. lia.
    + apply IH. apply Permutation_app_tail. assumption.
  - assert (Hin : In f h').
    { eapply Permutation_in; [eassumption | apply in_elt]. }
    apply in_split in Hin. destruct Hin as [h1' [h2' ->]].
    apply buf_emit. apply IH. eapply Permutation_app_inv. eassumption.
Qed.

(* window condition => buffered.  The condition says: the element emitted
   after [length p1] others is in the buffer or among the next
   [w + length p1 - length h] inputs. *)
Lemma window_buffered : forall w m h q p,
  length q + length p <= m ->
  NoDup p -> Permutation p (h ++ q) ->
  (forall p1 f p2, p = p1 ++ f :: p2 ->
     In f (h ++ firstn (w + length p1 - length h) q)) ->
  buffered w h q p.
Proof.
  intros w. induction m as [|m IH]; intros h q [|f p] Hm Hnd Hperm Hwin;
    try (apply Permutation_nil, app_eq_nil in Hperm as [-> ->]; constructor).
  - simpl in Hm. lia.
  - pose proof (Hwin [] f p eq_refl) as Hf. simpl in Hf. rewrite Nat.add_0_r in Hf.
    (* at type [file]: [lia] tells [@length nat] from [@length file] *)
    destruct (in_dec Nat.eq_dec f h : {In f h} + {~ In f h}) as [Hin | Hnin].
    + apply in_split in Hin. destruct Hin as [h1 [h2 ->]].
      apply buf_emit. apply IH.
      * simpl in Hm |- *. lia.
      * inversion Hnd; assumption.
      * rewrite <- app_assoc in Hperm. simpl in Hperm.
        apply Permutation_cons_app_inv in Hperm. rewrite <- app_assoc. exact Hperm.
      * intros p1 g p2 Hp. subst p.
        pose proof (Hwin (f :: p1) g p2 eq_refl) as Hg.
        assert (Hgf : g <> f).
        { inversion Hnd as [|x l Hx Hl]; subst. intros ->. apply Hx. apply in_elt. }
        rewrite app_length in *. simpl in *.
        replace (w + S (length p1) - (length h1 + S (length h2)))
          with (w + length p1 - (length h1 + length h2)) in Hg by lia.
        rewrite <- app_assoc in *. rewrite in_app_iff in *. simpl in Hg.
        destruct Hg as [Hg | [Hg | Hg]]; auto. congruence.
    + apply in_app_or in Hf. destruct Hf as [Hf | Hf]; [contradiction|].
      assert (Hroom : length h < w).
      { destruct (w - length h) eqn:Hd; [simpl in Hf; contradiction | lia]. }
      destruct q as [|g q]; [rewrite firstn_nil in Hf; contradiction|].
      apply buf_take; [assumption|]. apply IH.
      * simpl in Hm |- *. lia.
      * assumption.
      * rewrite <- app_assoc. simpl. exact Hperm.
      * intros p1 x p2 Hp.
        pose proof (Hwin p1 x p2 Hp) as Hx.
        rewrite app_length. simpl.
        replace (w + length p1 - length h)
          with (S (w + length p1 - (length h + 1))) in Hx by lia.
        simpl in Hx. rewrite <- app_assoc. simpl. exact Hx.
Qed.

(* index form of the window condition *)
Lemma window_nth_buffered : forall w (q p : list file),
  NoDup q -> Permutation p q ->
  (forall i, i < length p -> In (nth i p 0) (firstn (i + w) q)) ->
  buffered w [] q p.
Proof.
  intros w q p Hnd Hperm Hwin.
  apply window_buffered with (m := length q + length p).
  - lia.
  - eapply Permutation_NoDup; [apply Permutation_sym|]; eassumption.
  - simpl. assumption.
  - intros p1 f p2 Hp. simpl. rewrite Nat.sub_0_r.
    specialize (Hwin (length p1)).
    rewrite Hp in Hwin. rewrite app_length in Hwin. simpl in Hwin.
    rewrite app_nth2 in Hwin by lia. rewrite Nat.sub_diag in Hwin. simpl in Hwin.
    rewrite Nat.add_comm. apply Hwin. lia.
Qed.

Lemma buffered_all_perms : forall w q p,
  length q <= w -> Permutation p q -> buffered w [] q p.
Proof.
  intros w q p Hw Hperm.
  assert (Htake : forall q h, length h + length q <= w ->
            buffered w (h ++ q) [] p -> buffered w h q p).
  { clear. induction q as [|f q IH]; intros h Hlen Hb.
    - rewrite app_nil_r in Hb. exact Hb.
    - simpl in Hlen. apply buf_take; [lia|]. apply IH.
      + rewrite app_length. simpl. lia.
      + rewrite <- app_assoc. exact Hb. }
  apply Htake; [simpl; lia|]. simpl.
  clear Htake Hw. revert q Hperm.
  induction p as [|f p IH]; intros q Hperm.
  - apply Permutation_nil in Hperm. subst. constructor.
  - assert (Hin : In f q).
    { eapply Permutation_in; [eassumption | left; reflexivity]. }
    apply in_split in Hin. destruct Hin as [h1 [h2 ->]].
    apply buf_emit. apply IH.
    apply Permutation_cons_app_inv in Hperm. exact Hperm.
Qed.

(* Every order that a reorder buffer with w places can produce from the readable files is the merge
   order of a complete run, which is constructed here. *)
Section Orders.

  Variable n : nat.
  Variable w : nat.
  Variable readable : file -> bool.

  Notation step := (step n w readable).
  Notation star := (star n w readable).

  (* the next step of the run under construction is transition [c]; its guard holds by
     arithmetic or is in the context *)
  Ltac one c := eapply star_step; [ eapply c; simpl; try eassumption; try lia | ].

  Lemma run_send_all : forall rest q ws,
    length q + length rest <= n ->
    star (St (Sending rest) q false ws 0 0 [] GNotStarted CNotStarted [] [])
         (St (Sending []) (q ++ rest) false ws 0 0 [] GNotStarted CNotStarted [] []).
  Proof.
    induction rest as [|f rest IH]; intros q ws Hlen; simpl in *.
    - rewrite app_nil_r. apply star_refl.
    - one step_m_send. specialize (IH (q ++ [f]) ws). rewrite <- app_assoc in IH.
      apply IH. rewrite app_length. simpl. lia.
  Qed.

  (* states in which main sits in the collection loop with nothing merged yet, both helper
     goroutines run, and statusChan and progressChan are empty *)
  Definition stC q ws r sk : state :=
    St Collect q true ws 0 0 r GRunning CWaiting [] sk.

  (* main: send everything, close, start both helper goroutines *)
  Lemma run_main_prefix : forall files, length files <= n ->
    star (init files w) (stC files (repeat Recv w) [] []).
  Proof.
    intros files Hlen. unfold init.
    eapply star_trans; [apply run_send_all; simpl; lia|]. simpl.
    one step_m_sent_all. one step_m_close. one step_m_start_status.
    one step_m_start_closer. apply star_refl.
  Qed.

  (* one worker takes the head of fileChan and runs (with the status updater
     draining statusChan) until it is about to send its result *)
  Lemma run_one_readable : forall f q l1 l2 r sk, 0 < w -> readable f = true ->
    star (stC (f :: q) (l1 ++ Recv :: l2) r sk) (stC q (l1 ++ SendResult f :: l2) r sk).
  Proof.
    intros f q l1 l2 r sk Hw Hr. unfold stC.
    one step_w_recv. one step_w_status1. one step_g_status.
    one step_w_read_ok. one step_w_status2. one step_g_status.
    one step_w_build. one step_w_status3. one step_g_status.
    apply star_refl.
  Qed.

  (* a worker that is not in the middle of a file.  The run under construction keeps progressChan empty
     ([stC]), so [0 < n] is the guard of [step_w_send_progress] for a worker at [SendProgress] *)
  Definition calm (x : wstate) : Prop :=
    x = Recv \/ (exists f, x = SendResult f) \/ (0 < n /\ exists f, x = SendProgress f).

  (* a calm worker that holds no file: [run_make_recv] brings it to [Recv] *)
  Definition free (x : wstate) : Prop :=
    x = Recv \/ (0 < n /\ exists f, x = SendProgress f).

  Lemma free_calm : forall x, free x -> calm x.
  Proof.
    intros x [-> | [Hn [g ->]]]; [left; reflexivity|].
    right. right. split; [assumption | exists g; reflexivity].
  Qed.

  Lemma free_held : forall x, free x -> wheld x = [].
  Proof. intros x [-> | [_ [g ->]]]; reflexivity. Qed.

  Lemma calm_split : forall ws f, Forall calm ws -> In f (held ws) ->
    exists l1 l2, ws = l1 ++ SendResult f :: l2.
  Proof.
    intros ws f Hc Hin. apply in_flat_map in Hin as [x [Hx Hf]].
    apply in_split in Hx as [l1 [l2 ->]]. exists l1, l2.
    destruct (Forall_elt _ _ _ Hc) as [-> | [[g ->] | [_ [g ->]]]]; simpl in Hf; try contradiction.
    destruct Hf as [<- | []]. reflexivity.
  Qed.

  Lemma free_worker : forall ws, Forall calm ws -> length (held ws) < length ws ->
    exists l1 x l2, ws = l1 ++ x :: l2 /\ free x.
  Proof.
    induction ws as [|x t IH]; intros Hc Hlt; [simpl in Hlt; lia|].
    apply Forall_cons_iff in Hc as [Hx Ht].
    destruct Hx as [-> | [[g ->] | Hx]].
    - exists [], Recv, t. split; [reflexivity | left; reflexivity].
    - destruct (IH Ht) as (l1 & x & l2 & -> & Hf); [unfold held in *; simpl in Hlt; lia|].
      exists (SendResult g :: l1), x, l2. split; [reflexivity | exact Hf].
    - exists [], x, t. split; [reflexivity | right; exact Hx].
  Qed.

  (* a free worker takes and skips the unreadable files at the head of fileChan *)
  Lemma run_skip_unreadables : forall us x q l1 l2 r sk, 0 < w -> free x ->
    filter readable us = [] ->
    exists sk',
      star (stC (us ++ q) (l1 ++ x :: l2) r sk) (stC q (l1 ++ Recv :: l2) r sk').
  Proof.
    intros us x q l1 l2 r sk Hw Hx Hus.
    enough (exists sk', star (stC (us ++ q) (l1 ++ Recv :: l2) r sk) (stC q (l1 ++ Recv :: l2) r sk')) as [sk' H].
    { exists sk'. destruct Hx as [-> | [Hn [g ->]]]; [exact H|]. unfold stC in *.
      one step_w_send_progress. one step_g_progress. exact H. }
    revert sk Hus. induction us as [|u us IH]; intros sk Hus; simpl in *.
    - exists sk. apply star_refl.
    - destruct (readable u) eqn:Hu; [discriminate|].
      destruct (IH (u :: sk) Hus) as [sk' Hstar].
      exists sk'. unfold stC in *.
      one step_w_recv. one step_w_status1. one step_g_status. one step_w_read_fail.
      exact Hstar.
  Qed.

  (* a free worker takes and skips whatever unreadable files are left in fileChan *)
  Lemma run_drain : forall q ws r sk, Forall calm ws -> held ws = [] -> w <= length ws ->
    filter readable q = [] -> q = [] \/ 0 < w ->
    exists ws' sk',
      star (stC q ws r sk) (stC [] ws' r sk') /\ Forall calm ws' /\ held ws' = [].
  Proof.
    intros q ws r sk Hc Hh Hlen Hq [-> | Hw]; [exists ws, sk; auto using star_refl|].
    destruct (@free_worker ws Hc) as [l1 [x [l2 [-> Hx]]]]; [rewrite Hh; simpl; lia|].
    destruct (@run_skip_unreadables q x [] l1 l2 r sk Hw Hx Hq) as [sk' Hskip].
    rewrite app_nil_r in Hskip.
    exists (l1 ++ Recv :: l2), sk'. split; [|split].
    - exact Hskip.
    - eapply Forall_mid; [exact Hc|]. left. reflexivity.
    - rewrite held_mid, (free_held Hx) in Hh. rewrite held_mid. exact Hh.
  Qed.

  Lemma run_buffered : forall h qa p, buffered w h qa p ->
    forall q ws r sk,
      filter readable q = qa -> q = [] \/ 0 < w -> Forall calm ws -> w <= length ws ->
      Permutation h (held ws) -> length r + length p <= n ->
      exists ws' sk',
        star (stC q ws r sk) (stC [] ws' (r ++ p) sk') /\ Forall calm ws' /\ held ws' = [].
  Proof.
    intros h qa p Hb.
    induction Hb as [| h f qa p Hroom Hb IH | h1 f h2 qa p Hb IH];
      intros q ws r sk Hq Hw Hc Hlen Hp Hcap.
    - rewrite app_nil_r. apply run_drain; auto. apply Permutation_nil, Hp.
    - (* take: a free worker skips the unreadable files in front of f, then works on f *)
      destruct (@free_worker ws Hc) as [l1 [x [l2 [-> Hx]]]].
      { apply Permutation_length in Hp. lia. }
      destruct (filter_cons_split _ _ Hq) as [us [q' [-> [Hus [Hrf Hq']]]]].
      assert (Hw' : 0 < w) by lia.
      destruct (@run_skip_unreadables us x (f :: q') l1 l2 r sk Hw' Hx Hus) as [sk1 Hskip].
      rewrite held_mid, (free_held Hx) in Hp.
      destruct (IH q' (l1 ++ SendResult f :: l2) r sk1) as [ws2 [sk2 [Hstar Hrest]]]; auto.
      + eapply Forall_mid; [exact Hc|]. right. left. exists f. reflexivity.
      + rewrite app_length in *. exact Hlen.
      + rewrite held_mid. simpl.
        eapply Permutation_trans; [apply Permutation_app_comm|]. simpl.
        apply Permutation_cons_app. exact Hp.
      + exists ws2, sk2. split; [|exact Hrest].
        eapply star_trans; [exact Hskip|].
        eapply star_trans; [apply run_one_readable; assumption | exact Hstar].
    - (* emit: the worker that holds f sends it *)
      assert (Hin : In f (held ws)).
      { eapply Permutation_in; [eassumption | apply in_elt]. }
      destruct (calm_split _ Hc Hin) as [l1 [l2 ->]].
      rewrite held_mid in Hp. apply Permutation_app_inv in Hp. simpl in Hcap.
      destruct (IH q (l1 ++ SendProgress f :: l2) (r ++ [f]) sk)
        as [ws2 [sk2 [Hstar Hrest]]]; auto.
      + eapply Forall_mid; [exact Hc|]. right. right. split; [lia|]. exists f. reflexivity.
      + rewrite app_length in *. exact Hlen.
      + rewrite held_mid. exact Hp.
      + rewrite app_length. simpl. lia.
      + exists ws2, sk2. split; [|exact Hrest].
        unfold stC in *. one step_w_send_result.
        rewrite <- app_assoc in Hstar. exact Hstar.
  Qed.

  (* every worker sends its progress item (immediately consumed) and exits *)
  Lemma run_exit_all : forall ws done r sk,
    Forall calm ws -> held ws = [] ->
    star (stC [] (done ++ ws) r sk) (stC [] (done ++ repeat WExited (length ws)) r sk).
  Proof.
    induction ws as [|x t IH]; intros done r sk Hc Hh; simpl.
    - apply star_refl.
    - inversion Hc as [|x' t' Hx Ht]; subst.
      apply app_eq_nil in Hh as [Hhx Hht].
      specialize (IH (done ++ [WExited]) r sk Ht Hht). rewrite <- !app_assoc in IH.
      destruct Hx as [-> | [[g ->] | [Hn [g ->]]]]; [|discriminate|]; unfold stC in *.
      + one step_w_exit. exact IH.
      + one step_w_send_progress. one step_g_progress. one step_w_exit. exact IH.
  Qed.

  Lemma run_collect : forall r ws st mg sk,
    star (St Collect [] true ws 0 0 r st CFired mg sk)
         (St Join [] true ws 0 0 [] st CFired (mg ++ r) sk).
  Proof.
    induction r as [|f r IH]; intros ws st mg sk.
    - rewrite app_nil_r. one step_m_done. apply star_refl.
    - one step_m_collect. specialize (IH ws st (mg ++ [f]) sk). rewrite <- app_assoc in IH.
      exact IH.
  Qed.

  (* once every worker is calm and holds nothing, and fileChan is empty:
     workers exit, the closer fires, main merges what is in resultChan *)
  Lemma run_finish : forall ws r sk, Forall calm ws -> held ws = [] ->
    exists s, star (stC [] ws r sk) s /\ terminal n w readable s /\
              main s = Done /\ merged s = r.
  Proof.
    intros ws r sk Hc Hh.
    assert (Hall : forallb is_exited (repeat WExited (length ws)) = true).
    { induction (length ws) as [|k IH]; simpl; auto. }
    eexists. split.
    - eapply star_trans; [exact (@run_exit_all ws [] r sk Hc Hh)|]. unfold stC. simpl.
      one step_c_wait. one step_c_close_status. one step_c_close_progress.
      eapply star_trans; [apply run_collect|]. simpl.
      one step_g_exit_status. one step_m_join. apply star_refl.
    - split; [|split; reflexivity]. apply all_finished_terminal; try reflexivity. exact Hall.
  Qed.

  Lemma run_buffered_order : forall files p,
    length files <= n -> files = [] \/ 1 <= w ->
    buffered w [] (filter readable files) p ->
    exists s, star (init files w) s /\ terminal n w readable s /\
              main s = Done /\ merged s = p.
  Proof.
    intros files p Hlen Hw Hb.
    pose proof (Permutation_length (buffered_perm Hb)) as Hperm. simpl in Hperm.
    pose proof (filter_length_le readable files) as Hfl.
    destruct (@run_buffered [] (filter readable files) p Hb files (repeat Recv w) [] [])
      as [ws1 [sk1 [Hstar [Hc1 Hh1]]]]; auto.
    { apply Forall_forall. intros x Hx. left. exact (repeat_spec _ _ _ Hx). }
    { rewrite repeat_length. apply le_n. }
    { rewrite (proj1 (repeat_Recv w)). constructor. }
    { simpl. lia. }
    destruct (run_finish p sk1 Hc1 Hh1) as [s [Hfin Hs]].
    exists s. split; [|exact Hs].
    eapply star_trans; [apply run_main_prefix; lia|].
    eapply star_trans; [exact Hstar | exact Hfin].
  Qed.

End Orders.

Theorem pool_orders : forall files w readable p,
  1 <= w ->
  buffered w [] (filter readable files) p ->
  exists s, reachable files w readable s /\
            terminal (length files) w readable s /\
            main s = Done /\ merged s = p.
Proof.
  intros files w readable p Hw Hb. apply run_buffered_order; auto.
Qed.

(* if there are at least as many workers as files, every permutation of the readable files is the merge
   order of some complete run *)
Theorem pool_orders_small : forall files w readable p,
  length files <= w ->
  Permutation p (filter readable files) ->
  exists s, reachable files w readable s /\
            terminal (length files) w readable s /\
            main s = Done /\ merged s = p.
Proof.
  intros files w readable p Hw Hp. apply run_buffered_order; auto.
  - destruct files; simpl in *; [left; reflexivity | right; lia].
  - apply buffered_all_perms; [|exact Hp].
    pose proof (filter_length_le readable files). lia.
Qed.

Print Assumptions pool_orders_small.

(* an instance of [pool_orders]: every permutation p of the readable files in which the file merged at
   position i is among the first i + w readable files (in dispatch order) *)
Theorem pool_orders_window : forall files w readable p,
  1 <= w -> NoDup files ->
  Permutation p (filter readable files) ->
  (forall i, i < length p ->
     In (nth i p 0) (firstn (i + w) (filter readable files))) ->
  exists s, reachable files w readable s /\
            terminal (length files) w readable s /\
            main s = Done /\ merged s = p.
Proof.
  intros files w readable p Hw Hnd Hperm Hwin.
  apply pool_orders; [assumption|].
  apply window_nth_buffered; try assumption.
  apply NoDup_filter. assumption.
Qed.

Print Assumptions pool_orders.
Print Assumptions pool_orders_window.

(* Conversely, every merge order of a complete run is produced by the w-place reorder buffer, so
   [buffered] characterises them exactly. *)
Section OrdersConverse.

  Variable files : list file.
  Variable w : nat.
  Variable readable : file -> bool.

  Notation n := (length files).

  (* the buffer state a pool state stands for: what the workers hold, what is still to be dispatched,
     what has been emitted; an unreadable file never enters the buffer *)
  Definition buf_held (s : state) : list file := filter readable (held (wk s)).
  Definition buf_input (s : state) : list file := filter readable (fq s ++ rest_of (main s)).
  Definition buf_out (s : state) : list file := merged s ++ rq s.

  (* whatever the buffer can still do from here extends what was emitted *)
  Definition ord_inv (s : state) : Prop :=
    forall p', buffered w (buf_held s) (buf_input s) p' ->
               buffered w [] (filter readable files) (buf_out s ++ p').

  Lemma ord_step : forall s s', step n w readable s s' ->
    pool_inv files w readable s -> ord_inv s -> ord_inv s'.
  Proof.
    intros s s' Hstep Hinv Hord p' Hb.
    pose proof (inv_wk_len Hinv) as Hlen. pose proof (proj1 (inv_readable Hinv)) as Hrd.
    unfold ord_inv, buf_held, buf_input, buf_out in *.
    destruct Hstep; simpl in *; rewrite ?held_mid in *; simpl in *; try exact (Hord _ Hb).
    - (* main sends f: fq ++ rest unchanged *)
      rewrite <- app_assoc in Hb. exact (Hord _ Hb).
    - (* main merges f: merged ++ rq unchanged *)
      rewrite <- (app_assoc mg). exact (Hord _ Hb).
    - (* a worker takes f: the buffer takes it if it is readable, and never sees it otherwise *)
      apply Hord. rewrite filter_app in *. simpl in *. destruct (readable f) eqn:Hr; [|exact Hb].
      apply buf_take.
      + pose proof (filter_length_le readable (held l1)). pose proof (held_length_le l1).
        pose proof (filter_length_le readable (held l2)). pose proof (held_length_le l2).
        rewrite app_length in *. simpl in *. lia.
      + apply (buffered_perm_h Hb). rewrite <- app_assoc.
        apply Permutation_app_head, Permutation_cons_append.
    - (* an unreadable file is dropped: it was not in the buffer *)
      apply Hord. rewrite filter_app in *. simpl. rewrite H. exact Hb.
    - (* a worker sends its result: emit *)
      apply Forall_app in Hrd as [Hrd _]. unfold held_r in Hrd. rewrite flat_map_app in Hrd.
      apply Forall_elt in Hrd.
      rewrite app_assoc, <- (app_assoc _ [f]). apply Hord.
      rewrite filter_app in *. simpl. rewrite Hrd. apply buf_emit. exact Hb.
  Qed.

  Lemma ord_init : ord_inv (init files w).
  Proof.
    intros p' Hb. unfold buf_held, buf_input, buf_out, init in *. simpl in *.
    rewrite (proj1 (repeat_Recv w)) in Hb. simpl in Hb. exact Hb.
  Qed.

  Theorem pool_orders_exact : forall s, 1 <= w ->
    reachable files w readable s -> main s = Done ->
    buffered w [] (filter readable files) (merged s).
  Proof.
    intros s Hw Hr Hd.
    destruct (inv_done_shape Hw (pool_invariant Hr) Hd) as (Hfq & Hh & Hrq).
    assert (Hord : pool_inv files w readable s /\ ord_inv s).
    { eapply (star_inv (fun s => pool_inv files w readable s /\ ord_inv s)); [|exact Hr|].
      - intros s1 s2 Hstep [Hinv Hord]. eauto using pool_inv_step, ord_step.
      - split; [apply pool_inv_init | apply ord_init]. }
    destruct Hord as [_ Hord]. specialize (Hord []). unfold buf_held, buf_input, buf_out in Hord. rewrite Hd, Hfq, Hh, Hrq, !app_nil_r in Hord.
    apply Hord. constructor.
  Qed.

  Theorem pool_merge_orders_iff : forall p, 1 <= w ->
    (exists s, reachable files w readable s /\ main s = Done /\ merged s = p)
    <-> buffered w [] (filter readable files) p.
  Proof.
    intros p Hw. split.
    - intros [s [Hr [Hd <-]]]. apply pool_orders_exact; assumption.
    - intros Hb. destruct (pool_orders files readable Hw Hb) as [s [Hr [_ [Hd Hm]]]].
      exists s. auto.
  Qed.

End OrdersConverse.

Print Assumptions pool_orders_exact.
Print Assumptions pool_merge_orders_iff.

Section Example.

  Definition ex_files : list file := [10; 20; 30].
  Definition ex_readable (f : file) : bool := negb (f =? 20).

  Lemma run_sched_star : forall n w readable sched s,
    star n w readable s (run_sched n w readable sched s).
  Proof.
    intros n w readable sched. induction sched as [|c sched IH]; intros s; cbn [run_sched].
    - apply star_refl.
    - destruct (enabled_steps n w readable s) as [|s1 l] eqn:He.
      + apply star_refl.
      + eapply star_step; [|apply IH].
        apply enabled_steps_iff. rewrite He.
        apply nth_In. apply Nat.mod_upper_bound. discriminate.
  Qed.

  (* scheduler "always the first enabled action": main first, then worker 1,
     worker 2, status updater, closer.  58 = measure (init ex_files 2) steps
     always suffice. *)
  Definition ex_final_1 : state :=
    run_sched 3 2 ex_readable (repeat 0 58) (init ex_files 2).

  Example ex_run_1 :
    reachable ex_files 2 ex_readable ex_final_1 /\
    enabled_steps 3 2 ex_readable ex_final_1 = [] /\
    ex_final_1 =
      St Done [] true [WExited; WExited] 0 0 [] GExited CFired [10; 30] [20].
  Proof.
    split; [apply run_sched_star|]. split; vm_compute; reflexivity.
  Qed.

  (* a different scheduler (choice i at step i) delivers the other order *)
  Definition ex_final_2 : state :=
    run_sched 3 2 ex_readable (seq 0 58) (init ex_files 2).

  Example ex_run_2 :
    reachable ex_files 2 ex_readable ex_final_2 /\
    enabled_steps 3 2 ex_readable ex_final_2 = [] /\
    main ex_final_2 = Done /\ merged ex_final_2 = [30; 10] /\
    skipped ex_final_2 = [20].
  Proof.
    split; [apply run_sched_star|]. repeat split; vm_compute; reflexivity.
  Qed.

  Example ex_run_explicit :
    star 3 2 ex_readable (init ex_files 2)
      (St Done [] true [WExited; WExited] 0 0 [] GExited CFired [10; 30] [20]).
  Proof. destruct ex_run_1 as [Hr [_ <-]]. exact Hr. Qed.

  (* The subtle point: workers run before the status updater exists.  Here
     worker 1 has filled statusChan (cap 2) and is blocked on its third status
     send, worker 2 is blocked on the empty fileChan, nobody drains statusChan
     -- and the only enabled action is main's next send.  (pool_progress shows
     that main can always go on until it has started the status updater.) *)
  Example ex_workers_block_on_status :
    let s := run_sched 3 2 ex_readable [0; 1; 1; 1; 1; 1] (init ex_files 2) in
    reachable ex_files 2 ex_readable s /\
    s = St (Sending [20; 30]) [] false [Status3 10; Recv] 2 0 []
           GNotStarted CNotStarted [] [] /\
    enabled_steps 3 2 ex_readable s =
      [St (Sending [30]) [20] false [Status3 10; Recv] 2 0 []
          GNotStarted CNotStarted [] []].
  Proof.
    split; [apply run_sched_star|]. split; vm_compute; reflexivity.
  Qed.

End Example.

Print Assumptions ex_run_1.
Print Assumptions ex_run_2.
Print Assumptions ex_run_explicit.
Print Assumptions ex_workers_block_on_status.
