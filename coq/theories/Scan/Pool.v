(* Pool.v -- labelled transition system for the goroutine / channel protocol of
   [Initialize] in sourcecode-parser/graph/construct.go (worker pool).

   Self-contained: stdlib List / Arith / Lia / Bool only.  Files are abstract
   [nat] identifiers.  All facts are in PoolFacts.v.

   Go code being modelled (construct.go, func Initialize):

     fileChan     := make(chan string,     totalFiles)     cap n
     resultChan   := make(chan *CodeGraph, totalFiles)     cap n
     statusChan   := make(chan string,     numWorkers)     cap w
     progressChan := make(chan int,        totalFiles)     cap n

     worker:  for file := range fileChan {
                statusChan <- "reading"                    Status1
                readFile / parser.ParseCtx; on err: continue    Read
                statusChan <- "building"                   Status2
                buildGraphFromAST                          Build
                statusChan <- "done"                       Status3
                resultChan <- localGraph                   SendResult
                progressChan <- 1                          SendProgress
              }
              wg.Done()                                    WExited

     main:    go worker x w ; for files { fileChan <- f } ; close(fileChan) ;
              go status-updater ; go closer ; for g := range resultChan { merge } ;
              <-statusDone         (closed by the status updater when it returns)

     status:  for { select { case _, ok := <-statusChan:   if !ok {return}
                             case _, ok := <-progressChan: if !ok {return} } }

     closer:  wg.Wait(); close(resultChan); close(statusChan); close(progressChan)

   Modelling decisions are listed at the end of this file. *)

From Coq Require Import List Arith Lia Bool.
Import ListNotations.

Definition file := nat.

(* program counter of the main goroutine (after the workers were spawned) *)
Inductive mstate : Type :=
| Sending (rest : list file)  (* in the loop [for _, file := range files] *)
| CloseFiles                  (* about to [close(fileChan)] *)
| StartStatus                 (* about to [go func() { status updater }] *)
| StartCloser                 (* about to [go func() { wg.Wait(); close... }] *)
| Collect                     (* in [for localGraph := range resultChan] *)
| Join                        (* the range loop has terminated; at [<-statusDone] *)
| Done.                       (* Initialize returns *)

(* program counter of one worker goroutine; [X f] = about to perform action X
   on file f *)
Inductive wstate : Type :=
| Recv                        (* at [for file := range fileChan] *)
| Status1 (f : file)          (* about to send 1st status line *)
| Read (f : file)             (* about to readFile + ParseCtx *)
| Status2 (f : file)
| Build (f : file)            (* about to buildGraphFromAST *)
| Status3 (f : file)
| SendResult (f : file)       (* about to [resultChan <- localGraph] *)
| SendProgress (f : file)     (* about to [progressChan <- 1] *)
| WExited.                    (* has executed [wg.Done()] *)

(* status-updater goroutine *)
Inductive gstate : Type := GNotStarted | GRunning | GExited.

(* closer goroutine.  The three [close] calls are separate transitions; which
   channels are closed is a function of this program counter. *)
Inductive cstate : Type :=
| CNotStarted
| CWaiting          (* in [wg.Wait()] *)
| CClosedR          (* resultChan closed *)
| CClosedRS         (* resultChan, statusChan closed *)
| CFired.           (* all three closed; goroutine finished *)

Record state : Type := St {
  main    : mstate;
  fq      : list file;     (* fileChan buffer, head = oldest *)
  fclosed : bool;          (* fileChan closed *)
  wk      : list wstate;   (* the workers *)
  sq      : nat;           (* number of items buffered in statusChan *)
  pq      : nat;           (* number of items buffered in progressChan *)
  rq      : list file;     (* resultChan buffer, head = oldest *)
  status  : gstate;
  closer  : cstate;
  merged  : list file;     (* results merged by main, in arrival order *)
  skipped : list file      (* GHOST: files dropped by [continue] (read/parse error) *)
}.

Definition rclosed_c (c : cstate) : bool :=
  match c with CClosedR | CClosedRS | CFired => true | _ => false end.
Definition sclosed_c (c : cstate) : bool :=
  match c with CClosedRS | CFired => true | _ => false end.
Definition pclosed_c (c : cstate) : bool :=
  match c with CFired => true | _ => false end.

Definition rclosed (s : state) : bool := rclosed_c (closer s).
Definition sclosed (s : state) : bool := sclosed_c (closer s).
Definition pclosed (s : state) : bool := pclosed_c (closer s).

Definition is_exited (x : wstate) : bool :=
  match x with WExited => true | _ => false end.

Definition init (files : list file) (w : nat) : state :=
  St (Sending files) [] false (repeat Recv w) 0 0 [] GNotStarted CNotStarted [] [].

Section Model.

  Variable n : nat.                   (* cap fileChan = cap resultChan = cap progressChan *)
  Variable w : nat.                   (* cap statusChan (= number of workers in [init]) *)
  Variable readable : file -> bool.   (* readFile and ParseCtx both succeed *)

  (* One constructor per goroutine action.  A send on a buffered channel is
     enabled iff the buffer is not full (the guard is explicit, also for the
     channels of capacity n; PoolFacts proves these guards always hold). *)
  Inductive step : state -> state -> Prop :=
  (* ---------------- main ---------------- *)
  | step_m_send : forall f rest q fc ws a p r st co mg sk,
      length q < n ->
      step (St (Sending (f :: rest)) q fc ws a p r st co mg sk)
           (St (Sending rest) (q ++ [f]) fc ws a p r st co mg sk)
  | step_m_sent_all : forall q fc ws a p r st co mg sk,
      step (St (Sending []) q fc ws a p r st co mg sk)
           (St CloseFiles q fc ws a p r st co mg sk)
  | step_m_close : forall q fc ws a p r st co mg sk,
      step (St CloseFiles q fc ws a p r st co mg sk)
           (St StartStatus q true ws a p r st co mg sk)
  | step_m_start_status : forall q fc ws a p r st co mg sk,
      step (St StartStatus q fc ws a p r st co mg sk)
           (St StartCloser q fc ws a p r GRunning co mg sk)
  | step_m_start_closer : forall q fc ws a p r st co mg sk,
      step (St StartCloser q fc ws a p r st co mg sk)
           (St Collect q fc ws a p r st CWaiting mg sk)
  | step_m_collect : forall f q fc ws a p r st co mg sk,
      step (St Collect q fc ws a p (f :: r) st co mg sk)
           (St Collect q fc ws a p r st co (mg ++ [f]) sk)
  | step_m_done : forall q fc ws a p st co mg sk,
      rclosed_c co = true ->
      step (St Collect q fc ws a p [] st co mg sk)
           (St Join q fc ws a p [] st co mg sk)
  | step_m_join : forall q fc ws a p r co mg sk,
      step (St Join q fc ws a p r GExited co mg sk)
           (St Done q fc ws a p r GExited co mg sk)
  (* ---------------- worker (the one between l1 and l2) ---------------- *)
  | step_w_recv : forall f m q fc l1 l2 a p r st co mg sk,
      step (St m (f :: q) fc (l1 ++ Recv :: l2) a p r st co mg sk)
           (St m q fc (l1 ++ Status1 f :: l2) a p r st co mg sk)
  | step_w_exit : forall m l1 l2 a p r st co mg sk,
      step (St m [] true (l1 ++ Recv :: l2) a p r st co mg sk)
           (St m [] true (l1 ++ WExited :: l2) a p r st co mg sk)
  | step_w_status1 : forall f m q fc l1 l2 a p r st co mg sk,
      a < w ->
      step (St m q fc (l1 ++ Status1 f :: l2) a p r st co mg sk)
           (St m q fc (l1 ++ Read f :: l2) (S a) p r st co mg sk)
  | step_w_read_ok : forall f m q fc l1 l2 a p r st co mg sk,
      readable f = true ->
      step (St m q fc (l1 ++ Read f :: l2) a p r st co mg sk)
           (St m q fc (l1 ++ Status2 f :: l2) a p r st co mg sk)
  | step_w_read_fail : forall f m q fc l1 l2 a p r st co mg sk,
      readable f = false ->
      step (St m q fc (l1 ++ Read f :: l2) a p r st co mg sk)
           (St m q fc (l1 ++ Recv :: l2) a p r st co mg (f :: sk))
  | step_w_status2 : forall f m q fc l1 l2 a p r st co mg sk,
      a < w ->
      step (St m q fc (l1 ++ Status2 f :: l2) a p r st co mg sk)
           (St m q fc (l1 ++ Build f :: l2) (S a) p r st co mg sk)
  | step_w_build : forall f m q fc l1 l2 a p r st co mg sk,
      step (St m q fc (l1 ++ Build f :: l2) a p r st co mg sk)
           (St m q fc (l1 ++ Status3 f :: l2) a p r st co mg sk)
  | step_w_status3 : forall f m q fc l1 l2 a p r st co mg sk,
      a < w ->
      step (St m q fc (l1 ++ Status3 f :: l2) a p r st co mg sk)
           (St m q fc (l1 ++ SendResult f :: l2) (S a) p r st co mg sk)
  | step_w_send_result : forall f m q fc l1 l2 a p r st co mg sk,
      length r < n ->
      step (St m q fc (l1 ++ SendResult f :: l2) a p r st co mg sk)
           (St m q fc (l1 ++ SendProgress f :: l2) a p (r ++ [f]) st co mg sk)
  | step_w_send_progress : forall f m q fc l1 l2 a p r st co mg sk,
      p < n ->
      step (St m q fc (l1 ++ SendProgress f :: l2) a p r st co mg sk)
           (St m q fc (l1 ++ Recv :: l2) a (S p) r st co mg sk)
  (* ---------------- status updater (one select round) ---------------- *)
  | step_g_status : forall m q fc ws a p r co mg sk,
      step (St m q fc ws (S a) p r GRunning co mg sk)
           (St m q fc ws a p r GRunning co mg sk)
  | step_g_progress : forall m q fc ws a p r co mg sk,
      step (St m q fc ws a (S p) r GRunning co mg sk)
           (St m q fc ws a p r GRunning co mg sk)
  | step_g_exit_status : forall m q fc ws p r co mg sk,
      sclosed_c co = true ->       (* statusChan closed AND drained: ok = false *)
      step (St m q fc ws 0 p r GRunning co mg sk)
           (St m q fc ws 0 p r GExited co mg sk)
  | step_g_exit_progress : forall m q fc ws a r co mg sk,
      pclosed_c co = true ->       (* progressChan closed AND drained: ok = false *)
      step (St m q fc ws a 0 r GRunning co mg sk)
           (St m q fc ws a 0 r GExited co mg sk)
  (* ---------------- closer ---------------- *)
  | step_c_wait : forall m q fc ws a p r st mg sk,
      forallb is_exited ws = true ->       (* wg counter is 0 *)
      step (St m q fc ws a p r st CWaiting mg sk)
           (St m q fc ws a p r st CClosedR mg sk)
  | step_c_close_status : forall m q fc ws a p r st mg sk,
      step (St m q fc ws a p r st CClosedR mg sk)
           (St m q fc ws a p r st CClosedRS mg sk)
  | step_c_close_progress : forall m q fc ws a p r st mg sk,
      step (St m q fc ws a p r st CClosedRS mg sk)
           (St m q fc ws a p r st CFired mg sk).

  (* reflexive-transitive closure, and bounded versions *)
  Inductive star : state -> state -> Prop :=
  | star_refl : forall s, star s s
  | star_step : forall s1 s2 s3, step s1 s2 -> star s2 s3 -> star s1 s3.

  Inductive nsteps : nat -> state -> state -> Prop :=
  | nsteps_O : forall s, nsteps 0 s s
  | nsteps_S : forall k s1 s2 s3, step s1 s2 -> nsteps k s2 s3 -> nsteps (S k) s1 s3.

  Definition terminal (s : state) : Prop := forall s', ~ step s s'.

  (* ------------------------------------------------------------------ *)
  (* Executable successor function                                      *)
  (* ------------------------------------------------------------------ *)

  Fixpoint splits {A : Type} (l : list A) : list (list A * A * list A) :=
    match l with
    | [] => []
    | x :: t => ([], x, t) :: map (fun '(l1, y, l2) => (x :: l1, y, l2)) (splits t)
    end.

  Definition main_steps (s : state) : list state :=
    let '(St m q fc ws a p r st co mg sk) := s in
    match m with
    | Sending (f :: rest) =>
        if length q <? n then [St (Sending rest) (q ++ [f]) fc ws a p r st co mg sk] else []
    | Sending [] => [St CloseFiles q fc ws a p r st co mg sk]
    | CloseFiles => [St StartStatus q true ws a p r st co mg sk]
    | StartStatus => [St StartCloser q fc ws a p r GRunning co mg sk]
    | StartCloser => [St Collect q fc ws a p r st CWaiting mg sk]
    | Collect =>
        match r with
        | f :: r' => [St Collect q fc ws a p r' st co (mg ++ [f]) sk]
        | [] => if rclosed_c co then [St Join q fc ws a p [] st co mg sk] else []
        end
    | Join => match st with GExited => [St Done q fc ws a p r GExited co mg sk] | _ => [] end
    | Done => []
    end.

  Definition worker_steps_at (s : state) (l1 : list wstate) (x : wstate) (l2 : list wstate)
    : list state :=
    let '(St m q fc _ a p r st co mg sk) := s in
    match x with
    | Recv =>
        match q with
        | f :: q' => [St m q' fc (l1 ++ Status1 f :: l2) a p r st co mg sk]
        | [] => if fc then [St m [] true (l1 ++ WExited :: l2) a p r st co mg sk] else []
        end
    | Status1 f =>
        if a <? w then [St m q fc (l1 ++ Read f :: l2) (S a) p r st co mg sk] else []
    | Read f =>
        if readable f
        then [St m q fc (l1 ++ Status2 f :: l2) a p r st co mg sk]
        else [St m q fc (l1 ++ Recv :: l2) a p r st co mg (f :: sk)]
    | Status2 f =>
        if a <? w then [St m q fc (l1 ++ Build f :: l2) (S a) p r st co mg sk] else []
    | Build f => [St m q fc (l1 ++ Status3 f :: l2) a p r st co mg sk]
    | Status3 f =>
        if a <? w then [St m q fc (l1 ++ SendResult f :: l2) (S a) p r st co mg sk] else []
    | SendResult f =>
        if length r <? n
        then [St m q fc (l1 ++ SendProgress f :: l2) a p (r ++ [f]) st co mg sk] else []
    | SendProgress f =>
        if p <? n then [St m q fc (l1 ++ Recv :: l2) a (S p) r st co mg sk] else []
    | WExited => []
    end.

  Definition worker_steps (s : state) : list state :=
    flat_map (fun '(l1, x, l2) => worker_steps_at s l1 x l2) (splits (wk s)).

  Definition status_steps (s : state) : list state :=
    let '(St m q fc ws a p r st co mg sk) := s in
    match st with
    | GRunning =>
        (match a with S a' => [St m q fc ws a' p r GRunning co mg sk] | 0 => [] end) ++
        (match p with S p' => [St m q fc ws a p' r GRunning co mg sk] | 0 => [] end) ++
        (match a with
         | 0 => if sclosed_c co then [St m q fc ws 0 p r GExited co mg sk] else []
         | _ => [] end) ++
        (match p with
         | 0 => if pclosed_c co then [St m q fc ws a 0 r GExited co mg sk] else []
         | _ => [] end)
    | _ => []
    end.

  Definition closer_steps (s : state) : list state :=
    let '(St m q fc ws a p r st co mg sk) := s in
    match co with
    | CWaiting => if forallb is_exited ws then [St m q fc ws a p r st CClosedR mg sk] else []
    | CClosedR => [St m q fc ws a p r st CClosedRS mg sk]
    | CClosedRS => [St m q fc ws a p r st CFired mg sk]
    | _ => []
    end.

  (* all successors of s; [In s' (enabled_steps s) <-> step s s'] is
     PoolFacts.enabled_steps_iff *)
  Definition enabled_steps (s : state) : list state :=
    main_steps s ++ worker_steps s ++ status_steps s ++ closer_steps s.

  (* a scheduler is a list of choices; choice c picks successor number
     [c mod (number of successors)].  Stops early in a terminal state. *)
  Fixpoint run_sched (sched : list nat) (s : state) : state :=
    match sched with
    | [] => s
    | c :: sched' =>
        match enabled_steps s with
        | [] => s
        | s1 :: l => run_sched sched' (nth (c mod (S (length l))) (s1 :: l) s1)
        end
    end.

  (* ------------------------------------------------------------------ *)
  (* Termination measure                                                *)
  (* ------------------------------------------------------------------ *)

  (* upper bound on the number of steps still caused by one worker in a given
     local state, including the later consumption of everything it sends *)
  Definition wweight (x : wstate) : nat :=
    match x with
    | WExited => 0
    | Recv => 1
    | SendProgress _ => 3     (* send; item consumed; back in Recv *)
    | SendResult _ => 5
    | Status3 _ => 7
    | Build _ => 8
    | Status2 _ => 10
    | Read _ => 11
    | Status1 _ => 13
    end.

  Definition fweight : nat := 13.        (* one file waiting in fileChan *)

  (* StartStatus / StartCloser overwrite the [status] / [closer] component, so
     main's weight pays for the largest possible weight of the new component *)
  Definition mweight (m : mstate) : nat :=
    match m with
    | Sending rest => 10 + (S fweight) * length rest
    | CloseFiles => 9
    | StartStatus => 8
    | StartCloser => 6
    | Collect => 2
    | Join => 1
    | Done => 0
    end.

  Definition gweight (g : gstate) : nat :=
    match g with GNotStarted => 1 | GRunning => 1 | GExited => 0 end.

  Definition cweight (c : cstate) : nat :=
    match c with
    | CNotStarted => 3 | CWaiting => 3 | CClosedR => 2 | CClosedRS => 1 | CFired => 0
    end.

  Definition measure (s : state) : nat :=
    mweight (main s) + fweight * length (fq s)
    + list_sum (map wweight (wk s))
    + sq s + pq s + length (rq s)
    + gweight (status s) + cweight (closer s).

End Model.

(* ---------------------------------------------------------------------- *)
(* Derived notions used in the invariant                                   *)
(* ---------------------------------------------------------------------- *)

Definition rest_of (m : mstate) : list file :=
  match m with Sending rest => rest | _ => [] end.

(* file currently owned by a worker (taken from fileChan, result not yet sent) *)
Definition wheld (x : wstate) : list file :=
  match x with
  | Status1 f | Read f | Status2 f | Build f | Status3 f | SendResult f => [f]
  | Recv | SendProgress _ | WExited => []
  end.

(* ... and already successfully read *)
Definition wheld_r (x : wstate) : list file :=
  match x with
  | Status2 f | Build f | Status3 f | SendResult f => [f]
  | _ => []
  end.

Definition held (ws : list wstate) : list file := flat_map wheld ws.
Definition held_r (ws : list wstate) : list file := flat_map wheld_r ws.

Definition is_sp (x : wstate) : nat :=
  match x with SendProgress _ => 1 | _ => 0 end.
Definition count_sp (ws : list wstate) : nat := list_sum (map is_sp ws).

(* where every file is *)
Definition all_files (s : state) : list file :=
  rest_of (main s) ++ fq s ++ held (wk s) ++ rq s ++ merged s ++ skipped s.

(* main has executed close(fileChan) *)
Definition past_close (m : mstate) : bool :=
  match m with Sending _ | CloseFiles => false | _ => true end.

(* main has executed [go status-updater] *)
Definition past_status (m : mstate) : bool :=
  match m with StartCloser | Collect | Join | Done => true | _ => false end.

(* main has executed [go closer] *)
Definition past_closer (m : mstate) : bool :=
  match m with Collect | Join | Done => true | _ => false end.

(* reachable states of the protocol for a given list of files, w workers *)
Definition reachable (files : list file) (w : nat) (readable : file -> bool)
  (s : state) : Prop :=
  star (length files) w readable (init files w) s.

(* Specification of the possible merge orders: [buffered w h q p] says that
   the output sequence p can be produced from the input sequence q through a
   reorder buffer that currently holds h and has room for w elements
   (take the next input if there is room, or emit any buffered element). *)
Inductive buffered (w : nat) : list file -> list file -> list file -> Prop :=
| buf_done : buffered w [] [] []
| buf_take : forall h f q p,
    length h < w -> buffered w (h ++ [f]) q p -> buffered w h (f :: q) p
| buf_emit : forall h1 f h2 q p,
    buffered w (h1 ++ h2) q p -> buffered w (h1 ++ f :: h2) q (f :: p).

(* ======================================================================
   MODELLING DECISIONS

   1. Goroutine creation.  [go worker(i+1)] happens before the first file is
      sent.  [go f()] never blocks, and a worker that has been created but not
      scheduled is observationally the same as a worker sitting at
      [range fileChan] (state [Recv]).  So [init] has all w workers in [Recv]
      and main in [Sending files]; the spawn loop, parser creation
      ([sitter.NewParser], [SetLanguage]) and [verifBeforeFile] are local,
      non-blocking and not modelled.  The status updater and the closer ARE
      started by explicit main transitions, in the order of the source:
      send all files; close(fileChan); go status; go closer; collect.
      While [status = GNotStarted] nobody drains statusChan, so workers block
      on [a < w] once w items are buffered.

   2. [readable f] stands for "readFile(f) and parser.ParseCtx(...) both
      succeed".  Both failures execute [continue] after exactly one status
      send, no result and no progress, so they are the same transition
      [step_w_read_fail].  The ghost field [skipped] records those files; no
      guard reads it.

   3. Buffered channels.  A send is enabled iff the buffer is not full, for all
      four channels (guards [length q < n], [length r < n], [p < n], [a < w]).
      PoolFacts proves that for the three capacity-n channels the guard is
      always true in reachable states (pool_sends_never_block); only
      statusChan sends can block.  statusChan and progressChan carry no
      information relevant to the protocol and are modelled by their length.

   4. Closed channels (Go spec, "Receive operator", "Close", "Select
      statements").  A receive from a closed channel always proceeds: it
      yields the buffered values first (ok = true) and, once the buffer is
      empty, the zero value with ok = false.  A select picks uniformly among
      the cases that can proceed.  Hence for the status updater
        - case statusChan with ok=true   is enabled iff sq > 0
        - case progressChan with ok=true is enabled iff pq > 0
        - [return] via statusChan is enabled iff statusChan closed and sq = 0
        - [return] via progressChan is enabled iff progressChan closed, pq = 0
      so the goroutine may return while the OTHER channel still has buffered
      items (e.g. progress never reaches 100%), but never while both have.
      [range resultChan] in main ends iff resultChan is closed and empty.
      Sending on / closing a closed channel panics in Go; the model has no
      such transition guard, instead PoolFacts shows that in reachable states
      nobody is in a sending position on a closed channel
      (inv_closed_exited, inv_ctl) and each close happens once by
      construction of the program counters.

   5. The closer's three [close] calls are three transitions
      (CWaiting -> CClosedR -> CClosedRS -> CFired); "closed" flags are
      functions of the closer's program counter.  [wg.Wait()] returns iff
      every worker has executed [wg.Done()] (all [WExited]).
      [defer parser.Close()] / [defer tree.Close()] run after [wg.Done()];
      they are local and not modelled.

   6. [Initialize] is not [func main]: after it returns ([Done]) the closer
      may still take steps (its last [close] calls); these are part of the
      model (a terminal state has all goroutines finished).  The status
      updater has returned by then: main waits for it in [Join]
      ([<-statusDone], a channel closed by a deferred call of the updater;
      modelled as the guard [status = GExited]).  Before the repair
      "the progress display stops before the scan returns" there was no such
      wait and the updater kept writing to the terminal after [Done].

   7. The body of the status updater after the select, the merge loop body,
      logging and timing are local computations, fused with the receive.
      In particular [(progress*100)/totalFiles] is only evaluated after a
      successful receive; PoolFacts.pool_no_items_when_no_files shows that
      for n = 0 no item is ever buffered, so the division by zero is
      unreachable.

   8. Merge orders.  [buffered w [] (filter readable files) p] (a reorder
      buffer with w places) is shown to be SUFFICIENT for p to be the merge
      order of a complete run (PoolFacts.pool_orders); it is implied by the
      window condition "the file merged at position i is among the first
      i + w readable files" (pool_orders_window).  Necessity is not proved.
   ====================================================================== *)
