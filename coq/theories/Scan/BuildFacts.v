(* Facts about the builder model: the graph is the census of entities merged by identity (C03); every
   entity comes from a CST node of the file and carries its text and line (C04); a scan of a tree of
   the checked shape does not fail, and its work is quadratically bounded (C09). *)
From CPF Require Import Base.ListFacts Base.Bytes Base.BytesFacts Scan.Cst Scan.Build Scan.Merge Scan.MergeFacts.
From Coq Require Import Lia.
Open Scope bs_scope.

(* induction on a tree and on a list of siblings at once.  [Q] is where a loop over the children is
   taken apart: what the loop carries from one child to the next (the previous sibling, the end of
   its span, the graph) is quantified there *)
Lemma cst_kids_ind (P : cst -> Prop) (Q : list cst -> Prop) :
  (forall n, Q (c_kids n) -> P n) -> Q [] -> (forall k r, P k -> Q r -> Q (k :: r)) -> forall n, P n.
Proof.
  intros Hn H0 Hc. fix IH 1. intros [ty nm ms f sb eb r c kids]. apply Hn. cbn [c_kids].
  induction kids as [|k ks IHks]; [exact H0|]. apply Hc; [apply IH|exact IHks].
Qed.

Lemma cst_nodes_eq n : cst_nodes n = n :: flat_map cst_nodes (c_kids n).
Proof. destruct n; reflexivity. Qed.

(* the inner loops of [census], [visit] and [cst_wfb] under names, so that each of the three unfolds
   one level by an equation *)
Definition census_kids (src file : bytes) :=
  fix go (ks : list cst) (prev : option cst) : result (list node) :=
    match ks with
    | [] => Ok []
    | k :: r => do a <- census src file prev k; do b <- go r (Some k); Ok (a ++ b)
    end.

Lemma census_eq src file prev n :
  census src file prev n =
  do ns <- entities_of src file prev n; do rest <- census_kids src file (c_kids n) None; Ok (ns ++ rest).
Proof. destruct n; reflexivity. Qed.

Definition visit_kids (src file : bytes) (ctx : option node) :=
  fix go (ks : list cst) (prev : option cst) (g : graph) : result graph :=
    match ks with
    | [] => Ok g
    | k :: r => do g' <- visit src file prev k ctx g; go r (Some k) g'
    end.

Lemma visit_eq src file prev n ctx g :
  visit src file prev n ctx g =
  do '(g1, ctx1) <- visit_here src file prev n ctx g; visit_kids src file ctx1 (c_kids n) None g1.
Proof. destruct n; reflexivity. Qed.

Definition kids_in (src : bytes) (eb : N) :=
  fix go (ks : list cst) (lo : N) : bool :=
    match ks with
    | [] => true
    | k :: r => (lo <=? c_sb k)%N && (c_eb k <=? eb)%N && cst_wfb src k && go r (c_eb k)
    end.

Lemma cst_wfb_eq src n :
  cst_wfb src n =
  (c_sb n <=? c_eb n)%N && (c_eb n <=? N.of_nat (length src))%N
  && (c_row n =? count_nl (firstn (N.to_nat (c_sb n)) src))%N && kids_in src (c_eb n) (c_kids n) (c_sb n).
Proof. destruct n; reflexivity. Qed.

Lemma cst_wfb_sub src : forall t c, cst_wfb src t = true -> In c (cst_nodes t) -> cst_wfb src c = true.
Proof.
  induction t as [t IH| |k r Hk Hr] using cst_kids_ind with
    (Q := fun ks => forall eb lo c, kids_in src eb ks lo = true -> In c (flat_map cst_nodes ks) ->
                                    cst_wfb src c = true).
  - intros c Hwf. rewrite cst_nodes_eq. intros [<-|Hin]; [exact Hwf|].
    rewrite cst_wfb_eq in Hwf. apply andb_true_iff in Hwf as [_ Hks]. exact (IH _ _ c Hks Hin).
  - intros eb lo c _ [].
  - intros eb lo c H Hin. cbn [kids_in] in H. apply andb_true_iff in H as [H Hks].
    apply andb_true_iff in H as [_ Hwk]. cbn [flat_map] in Hin. apply in_app_or in Hin as [Hin|Hin]; [exact (Hk c Hwk Hin)|exact (Hr _ _ c Hks Hin)].
Qed.

Lemma cst_nodes_length t : length (cst_nodes t) = cst_size t.
Proof.
  induction t as [t IH| |k r Hk Hr] using cst_kids_ind with
    (Q := fun ks => length (flat_map cst_nodes ks)
                    = (fix go ks := match ks with [] => 0 | k :: r => cst_size k + go r end) ks).
  - rewrite cst_nodes_eq. destruct t. cbn [cst_size c_kids length] in *. f_equal. exact IH.
  - reflexivity.
  - cbn [flat_map]. rewrite app_length, Hk, Hr. reflexivity.
Qed.

Lemma kids_span_sum src eb kids : forall lo,
  kids_in src eb kids lo = true -> list_sum (List.map span kids) <= N.to_nat (eb - lo).
Proof.
  induction kids as [|k ks IH]; intros lo H; [cbn; lia|]. cbn [kids_in] in H.
  apply andb_true_iff in H as [H Hr]. apply andb_true_iff in H as [H Hk].
  apply andb_true_iff in H as [H1 H2]. apply N.leb_le in H1, H2.
  rewrite cst_wfb_eq in Hk. repeat (apply andb_true_iff in Hk as [Hk _]). apply N.leb_le in Hk.
  specialize (IH (c_eb k) Hr).
  change (list_sum (List.map span (k :: ks))) with (span k + list_sum (List.map span ks)). unfold span at 1. lia.
Qed.

Definition is_ok {A} (r : result A) : Prop := exists a, r = Ok a.

Lemma fold_left_preserves {S X} (P : S -> Prop) (f : S -> X -> S) (l : list X) :
  (forall acc x, In x l -> P acc -> P (f acc x)) ->
  forall acc, P acc -> P (fold_left f l acc).
Proof.
  induction l as [|x l IH]; intros Hf acc Hacc; [exact Hacc|].
  cbn [fold_left]. apply IH.
  - intros a y Hy. apply Hf. right. exact Hy.
  - apply Hf; [left; reflexivity|exact Hacc].
Qed.

Lemma bind_ok {A B} (r : result A) (f : A -> result B) :
  is_ok r -> (forall a, is_ok (f a)) -> is_ok (bind r f).
Proof. intros [a ->] Hf. apply Hf. Qed.

Lemma extract_method_name_ok src n file :
  node_shape_okb n = true -> is_ok (extract_method_name src n file).
Proof.
  intro Hs. apply bind_ok; [|intros [nm ps]; eexists; reflexivity].
  destruct (is_ty "method_declaration" n); [eexists; reflexivity|].
  destruct (is_ty "method_invocation" n) eqn:Emi; [|eexists; reflexivity].
  apply bytes_eqb_true in Emi. unfold node_shape_okb in Hs. rewrite Emi in Hs. cbn in Hs.
  (* the loop over the children, and in it the loop over the arguments *)
  apply fold_left_preserves; [|eexists; reflexivity]. intros acc ch _ Hacc. apply bind_ok; [exact Hacc|]. intros [nm ps].
  destruct (child_by_field n "argument_list") as [args|]; [|eexists; reflexivity].
  apply bind_ok; [|eexists; reflexivity]. apply fold_left_preserves; [|eexists; reflexivity].
  intros acc2 a Ha Hacc2. apply bind_ok; [exact Hacc2|]. intros ps0.
  rewrite forallb_forall in Hs. specialize (Hs a Ha). cbn beta in Hs.
  unfold child. destruct (c_kids a); [discriminate Hs|eexists; reflexivity].
Qed.

Definition derived (src file : bytes) (c : cst) (e : node) : Prop :=
  n_file e = file /\ n_snippet e = content src c /\ n_line e = (c_row c + 1)%N.

(* by one case analysis of the switch; a failure is one of the nil dereferences [node_shape_okb] lists *)
Lemma entities_of_spec src file prev n :
  match entities_of src file prev n with
  | Ok ns => Forall (derived src file n) ns /\ List.map n_type ns = kinds_of src n
  | Panic _ => node_shape_okb n = false
  end.
Proof.
  pose proof (extract_method_name_ok src n file) as Hm.
  unfold entities_of, kinds_of, node_shape_okb in *. cbv zeta.
  (* the branch of the switch, then what the branch dereferences or takes apart *)
  repeat (match goal with
          | |- context [if bytes_eqb (c_ty n) ?b then _ else _] => destruct (bytes_eqb (c_ty n) b)
          end; cbn [orb] in * ).
  all: repeat match goal with
       | |- context [deref _ ?o] => destruct o; cbn [deref bind]
       | |- context [match ?x with (_, _) => _ end] => destruct x
       | |- context [match ?x with Some _ => _ | None => _ end] => destruct x
       | |- context [if ?b then _ else _] => destruct b
       | |- context [bind ?r _] => destruct r as [[? ?]|]; cbn [bind]
       end.
  all: try (split; [repeat constructor|reflexivity]).
  all: try reflexivity.
  (* what is left is a failure of [extract_method_name]: the shape rules it out *)
  all: match goal with |- ?b = false => destruct b; [destruct (Hm eq_refl) as [? [=]]|reflexivity] end.
Qed.

Definition census_spec (src file : bytes) (cs : list cst) (es : list node) : Prop :=
  List.map n_type es = flat_map (kinds_of src) cs
  /\ Forall (fun e => exists c, In c cs /\ derived src file c e) es.

Lemma census_spec_app src file cs1 cs2 es1 es2 :
  census_spec src file cs1 es1 -> census_spec src file cs2 es2 -> census_spec src file (cs1 ++ cs2) (es1 ++ es2).
Proof.
  intros [K1 D1] [K2 D2]. split; [rewrite map_app, flat_map_app, K1, K2; reflexivity|].
  apply Forall_app. split; [eapply Forall_impl; [|exact D1]|eapply Forall_impl; [|exact D2]];
    intros e (c & Hc & He); exists c; (split; [apply in_or_app; auto|exact He]).
Qed.

Lemma census_total src file : forall n prev,
  match census src file prev n with
  | Ok es => census_spec src file (cst_nodes n) es
  | Panic _ => forallb node_shape_okb (cst_nodes n) = false
  end.
Proof.
  induction n as [n IH| |k r Hk Hr] using cst_kids_ind with
    (Q := fun ks => forall prev, match census_kids src file ks prev with
                                 | Ok es => census_spec src file (flat_map cst_nodes ks) es
                                 | Panic _ => forallb node_shape_okb (flat_map cst_nodes ks) = false
                                 end).
  - intros prev. rewrite census_eq, cst_nodes_eq. cbn [forallb].
    pose proof (entities_of_spec src file prev n) as Hn.
    destruct (entities_of src file prev n) as [ns|]; cbn [bind]; [|rewrite Hn; reflexivity].
    specialize (IH None). destruct (census_kids _ _ _ _) as [rest|]; cbn [bind]; [|rewrite IH; apply andb_false_r].
    apply (census_spec_app src file [n]); [|exact IH]. destruct Hn as [Hd Hk].
    split; [cbn [flat_map]; rewrite app_nil_r; exact Hk|].
    eapply Forall_impl; [|exact Hd]. intros e He. exists n. split; [left; reflexivity|exact He].
  - intros prev. split; constructor.
  - intros prev. cbn [census_kids flat_map]. rewrite forallb_app. specialize (Hk prev). specialize (Hr (Some k)).
    destruct (census src file prev k); cbn [bind]; [|rewrite Hk; reflexivity].
    destruct (census_kids _ _ r _); cbn [bind]; [|rewrite Hr; apply andb_false_r].
    exact (census_spec_app _ _ _ _ _ _ Hk Hr).
Qed.

Theorem census_sound src file n prev es :
  census src file prev n = Ok es -> census_spec src file (cst_nodes n) es.
Proof. intro H. pose proof (census_total src file n prev) as S. rewrite H in S. exact S. Qed.

Definition entries (es : list node) : list (bytes * node) := List.map (fun e => (n_idpre e, e)) es.

Lemma add_nodes_nodes es : forall g, g_nodes (add_nodes es g) = insert_all node (entries es) (g_nodes g).
Proof. induction es as [|e es IH]; intro g; [reflexivity|]. exact (IH (add_node e g)). Qed.

Lemma map_insert_keys k v m x :
  In x (map fst (map_insert k v m)) <-> x = k \/ In x (map fst m).
Proof. exact (gm_insert_keys node k v m x). Qed.

(* [r] yields, read through [p], the map [m] with the entities that [c] yields inserted; it fails
   exactly when [c] fails (a nil dereference in the Go code) *)
Definition inserts {X} (r : result X) (p : X -> list (bytes * node)) (c : result (list node)) m : Prop :=
  (do x <- r; Ok (p x)) = (do es <- c; Ok (insert_all node (entries es) m)).

Lemma insert_then {X} (r1 : result X) p (f : X -> result graph) c1 c2 m :
  inserts r1 p c1 m -> (forall x, inserts (f x) g_nodes c2 (p x)) ->
  inserts (do x <- r1; f x) g_nodes (do a <- c1; do b <- c2; Ok (a ++ b)) m.
Proof.
  unfold inserts. intros H1 H2. destruct r1 as [x|], c1 as [a|]; cbn [bind] in *; try discriminate H1; [|exact H1].
  injection H1 as H1. specialize (H2 x).
  destruct (f x), c2 as [b|]; cbn [bind] in *; try discriminate H2; [|exact H2].
  injection H2 as ->. unfold entries. rewrite map_app, insert_all_app, H1. reflexivity.
Qed.

Lemma visit_here_nodes src file prev n ctx g :
  inserts (visit_here src file prev n ctx g) (fun gc => g_nodes (fst gc)) (entities_of src file prev n) (g_nodes g).
Proof.
  unfold inserts, visit_here. destruct (entities_of src file prev n) as [ns|s]; [|reflexivity]. cbn [bind].
  destruct (is_ty "method_invocation" n); [|destruct (_ || _)]; cbn [bind fst]; rewrite <- add_nodes_nodes;
    [destruct ctx as [c|]; [destruct ns as [|m [|? ?]]|]|..]; reflexivity.
Qed.

Theorem visit_census src file : forall n prev ctx g,
  inserts (visit src file prev n ctx g) g_nodes (census src file prev n) (g_nodes g).
Proof.
  induction n as [n IH| |k r Hk Hr] using cst_kids_ind with
    (Q := fun ks => forall prev ctx g,
            inserts (visit_kids src file ctx ks prev g) g_nodes (census_kids src file ks prev) (g_nodes g)).
  - intros prev ctx g. rewrite visit_eq, census_eq.
    apply (insert_then _ (fun gc => g_nodes (fst gc))); [apply visit_here_nodes|]. intros [g1 ctx1]. apply IH.
  - reflexivity.
  - intros prev ctx g. cbn [visit_kids census_kids]. apply (insert_then _ g_nodes); [apply Hk|]. intro gk. apply Hr.
Qed.

(* the matching pass touches the access flag only *)
Definition same_but_access (a b : node) : Prop := a = b \/ a = set_access true b.

Theorem build_file_entities path src t g :
  build_file path src t = Ok g ->
  exists es, census src path None t = Ok es
    /\ Forall2 (fun x y => fst x = fst y /\ same_but_access (snd x) (snd y))
         (g_nodes g) (insert_all node (entries es) []).
Proof.
  unfold build_file. intro H. pose proof (visit_census src path t None None empty_graph) as Hv. unfold inserts in Hv.
  destruct (visit src path None t None empty_graph) as [g0|]; [|discriminate]. injection H as <-.
  destruct (census src path None t) as [es|]; [|discriminate]. injection Hv as Hv. exists es. split; [reflexivity|].
  rewrite <- Hv. clear Hv. cbn [matching_pass g_nodes].
  (* the list that [invoked] reads is set apart, so that the induction moves the mapped list only *)
  generalize (g_nodes g0) at 1. intro all.
  induction (g_nodes g0) as [|[k m] l IH]; [constructor|]. constructor; [|exact IH].
  destruct (_ && _); cbn [fst snd]; split; auto; [right|left]; reflexivity.
Qed.

(* C03: the entities are those the node types stand for, each derived from its node; when their
   identities are pairwise distinct the graph holds exactly them *)
Theorem build_file_census path src t g :
  build_file path src t = Ok g ->
  exists es,
    census src path None t = Ok es
    /\ List.map n_type es = flat_map (kinds_of src) (cst_nodes t)
    /\ Forall (fun e => exists c, In c (cst_nodes t) /\ derived src path c e) es
    /\ (NoDup (List.map n_idpre es) -> Forall2 same_but_access (List.map snd (g_nodes g)) es).
Proof.
  intro Hb. destruct (build_file_entities _ _ _ _ Hb) as (es & Ec & HF). destruct (census_sound _ _ _ _ _ Ec) as [Hk Hd].
  exists es. repeat split; try assumption. intro Hnd.
  rewrite insert_all_fresh in HF by (unfold entries; rewrite map_map; exact Hnd). cbn [app] in HF.
  clear - HF. revert HF. generalize (g_nodes g).
  induction es as [|e es IH]; intros l HF; inversion HF as [|x ? l' ? [_ Hx] HF']; subst; constructor;
    [exact Hx|exact (IH _ HF')].
Qed.

(* C04, model level: whatever entity a scan of (path, src) yields, its file is the scanned path and
   its snippet is the text of the file that starts on its line. *)
Theorem build_file_location path src t g k e :
  cst_wfb src t = true -> build_file path src t = Ok g -> In (k, e) (g_nodes g) ->
  n_file e = path
  /\ exists pre post, src = pre ++ n_snippet e ++ post /\ n_line e = (count_nl pre + 1)%N.
Proof.
  intros Hwf Hb Hin. apply build_file_entities in Hb as (es & Ec & HF).
  destruct (Forall2_in_l _ _ _ _ HF Hin) as ([k0 e0] & Hin0 & _ & Hsame). cbn [snd] in Hsame.
  apply insert_all_in in Hin0 as [[]|Hin0]. apply in_map_iff in Hin0 as (e1 & [= _ ->] & Hin0).
  apply census_sound in Ec as [_ Ec]. rewrite Forall_forall in Ec. destruct (Ec e0 Hin0) as (c & Hc & Hd).
  assert (Hd' : derived src path c e) by (destruct Hsame as [-> | ->]; exact Hd).
  destruct Hd' as (Hf & Hs & Hl). split; [exact Hf|].
  pose proof (cst_wfb_sub src t c Hwf Hc) as Hw. rewrite cst_wfb_eq in Hw.
  apply andb_true_iff in Hw as [Hw _]. apply andb_true_iff in Hw as [Hw H3]. apply andb_true_iff in Hw as [H1 H2].
  exists (firstn (N.to_nat (c_sb c)) src), (skipn (N.to_nat (c_eb c)) src).
  rewrite Hs, Hl, <- (proj1 (N.eqb_eq _ _) H3). unfold content.
  split; [apply slice_split; apply N.leb_le; assumption|reflexivity].
Qed.

(* C09, crash part, model level *)
Theorem build_file_total path src t :
  shape_okb t = true -> exists g, build_file path src t = Ok g.
Proof.
  intro Hs. pose proof (census_total src path t None) as Hc.
  pose proof (visit_census src path t None None empty_graph) as Hv. unfold build_file, inserts in *.
  destruct (census src path None t); [|unfold shape_okb in Hs; congruence].
  destruct (visit _ _ _ _ _ _); [eexists; reflexivity|discriminate Hv].
Qed.

Lemma cst_wfb_node_work src c : cst_wfb src c = true -> node_work c <= 8 * length src.
Proof.
  rewrite cst_wfb_eq. intro H. apply andb_true_iff in H as [H Hk]. apply andb_true_iff in H as [H _].
  apply andb_true_iff in H as [H1 H2]. apply N.leb_le in H1, H2.
  pose proof (kids_span_sum src _ _ _ Hk). unfold node_work, span at 1. lia.
Qed.

Lemma kinds_of_length src n : length (kinds_of src n) <= 2.
Proof.
  unfold kinds_of.
  repeat match goal with |- context [if ?b then _ else _] => destruct b end; cbn [length]; try lia.
  destruct (child_by_field n "operator"); cbn [length]; [|lia].
  rewrite app_length. destruct (lookup_binop _) as [[? ?]|]; cbn [length]; lia.
Qed.

(* C09, cost part, model level *)
Theorem build_file_work path src t g :
  cst_wfb src t = true -> build_file path src t = Ok g ->
  work t g <= 8 * (cst_size t + length src) * (cst_size t + length src).
Proof.
  intros Hwf Hb.
  assert (Hsz : 1 <= cst_size t) by (destruct t; cbn [cst_size]; lia).
  assert (Hw : list_sum (List.map node_work (cst_nodes t)) <= 8 * length src * cst_size t).
  { rewrite <- cst_nodes_length. apply list_sum_bound. intros c Hc. apply cst_wfb_node_work, (cst_wfb_sub src t c Hwf Hc). }
  assert (Hn : length (g_nodes g) <= 2 * cst_size t).
  { apply build_file_entities in Hb as (es & Ec & HF). apply census_sound in Ec as [Ec _].
    rewrite (Forall2_len _ _ _ HF).
    pose proof (insert_all_length node (entries es) []) as H1. unfold entries in H1. rewrite map_length in H1. cbn [length] in H1.
    apply (f_equal (@length _)) in Ec. rewrite map_length in Ec.
    pose proof (flat_map_length_bound (kinds_of src) 2 (cst_nodes t) (kinds_of_length src)) as H2.
    rewrite cst_nodes_length in H2. unfold entries. lia. }
  unfold work.
  pose proof (filter_length_le (fun '(_, m) => bytes_eqb (n_type m) "method_declaration") (g_nodes g)) as Hf.
  set (D := length (filter _ (g_nodes g))) in *. set (M := length (g_nodes g)) in *.
  set (S := cst_size t) in *. set (L := length src) in *.
  assert (D * M <= 4 * S * S) by nia. nia.
Qed.
