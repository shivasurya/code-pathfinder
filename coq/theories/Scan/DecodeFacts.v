(* C05/C06 stage 1: under the tree-sitter-java shape of a construct, the entity the builder creates
   carries exactly the attributes written in the source (as specified through field names). *)
From CPF Require Import Base.ListFacts Base.Bytes Base.BytesFacts Scan.Cst Scan.Build Scan.Decode.
Open Scope bs_scope.

Lemma is_ty_eq t k : is_ty t k = true -> c_ty k = t.
Proof. unfold is_ty. apply bytes_eqb_true. Qed.

Lemma has_field_eq f k : has_field f k = true -> c_field k = Some f.
Proof.
  unfold has_field. destruct (c_field k) as [g|]; [|discriminate].
  intro H. apply bytes_eqb_true in H. subst. reflexivity.
Qed.

Lemma no_field_eq k : no_field k = true -> c_field k = None.
Proof. unfold no_field. destruct (c_field k); [discriminate|reflexivity]. Qed.

Lemma tok_eq t k : tok t k = true -> c_ty k = t /\ c_named k = false /\ c_field k = None.
Proof.
  unfold tok. intro H. apply andb_true_iff in H as [H H3]. apply andb_true_iff in H as [H1 H2].
  repeat split; [apply is_ty_eq, H1|apply negb_true_iff, H2|apply no_field_eq, H3].
Qed.

Lemma is_ty_ty t t' k : is_ty t k = true -> is_ty t' k = bytes_eqb t t'.
Proof. intro H. unfold is_ty. rewrite (is_ty_eq t k H). reflexivity. Qed.

Lemma has_field_field f f' k : has_field f k = true -> has_field f' k = bytes_eqb f f'.
Proof. intro H. unfold has_field. rewrite (has_field_eq f k H). reflexivity. Qed.

Lemma no_field_field f k : no_field k = true -> has_field f k = false.
Proof. intro H. unfold has_field. rewrite (no_field_eq k H). reflexivity. Qed.

Lemma find_only {A} (p : A -> bool) l o : filter p l = olist o -> find p l = o.
Proof. intro H. rewrite find_filter, H. destruct o; reflexivity. Qed.

Lemma skip_opt_olist p ks :
  exists o, ks = olist o ++ skip_opt p ks /\ forallb p (olist o) = true.
Proof.
  destruct ks as [|k r]; [exists None; split; reflexivity|]. cbn [skip_opt].
  destruct (p k) eqn:E; [exists (Some k)|exists None]; cbn [olist forallb app]; rewrite ?E; split; reflexivity.
Qed.

Lemma child_by_field_find n f : child_by_field n f = find (has_field f) (c_kids n).
Proof. reflexivity. Qed.

Lemma named_parts_eq n : named_parts n = filter c_named (parts n).
Proof. unfold named_parts, named_kids, parts. apply filter_comm. Qed.

Lemma not_comment_ty k :
  bytes_eqb (c_ty k) "block_comment" = false -> bytes_eqb (c_ty k) "line_comment" = false ->
  not_comment k = true.
Proof. unfold not_comment, is_comment, is_ty. intros -> ->. reflexivity. Qed.

Lemma comment_not_assign k : not_comment k = false -> is_ty "=" k = false.
Proof.
  unfold not_comment, is_comment, is_ty. intro H. apply negb_false_iff in H.
  apply orb_true_iff in H as [H|H]; apply bytes_eqb_true in H; rewrite H; reflexivity.
Qed.

Lemma comments_after_find f : forall ks seen,
  comments_after seen ks = true -> existsb (has_field f) seen = false ->
  find (has_field f) ks = find (has_field f) (filter not_comment ks).
Proof.
  induction ks as [|k r IH]; intros seen Hc Hs; [reflexivity|].
  cbn [comments_after] in Hc. cbn [find filter]. destruct (not_comment k) eqn:Ek.
  - cbn [find]. destruct (has_field f k) eqn:Ef; [reflexivity|].
    apply (IH (k :: seen) Hc). cbn [existsb]. rewrite Ef, Hs. reflexivity.
  - apply andb_true_iff in Hc as [Hk Hr].
    assert (Ef : has_field f k = false).
    { unfold has_field. destruct (c_field k) as [g|] eqn:Eg; [|reflexivity].
      destruct (bytes_eqb g f) eqn:E; [|reflexivity].
      apply bytes_eqb_true in E. subst g. rewrite Hs in Hk. discriminate Hk. }
    rewrite Ef. apply (IH seen Hr Hs).
Qed.

Lemma child_by_field_parts n f :
  comments_ok n = true -> child_by_field n f = find (has_field f) (parts n).
Proof. intro H. exact (comments_after_find f (c_kids n) [] H eq_refl). Qed.

Lemma init_text_parts src : forall ks v,
  init_text src ks v = init_text src (filter not_comment ks) v.
Proof.
  induction ks as [|k r IH]; intro v; [reflexivity|]. cbn [init_text filter].
  destruct (not_comment k) eqn:E.
  - cbn [init_text]. rewrite filter_idem. apply IH.
  - rewrite (comment_not_assign k E). apply IH.
Qed.

Ltac split_andb :=
  repeat match goal with
  | H : _ && _ = true |- _ => apply andb_true_iff in H; destruct H
  end.

(* evaluate comparisons of literal byte strings (those on the type of a node are left alone) *)
Ltac ev_lit t :=
  let v := eval vm_compute in t in
  lazymatch v with true => idtac | false => idtac end; change t with v.
Ltac ev_eqb :=
  repeat match goal with
  | |- context [bytes_eqb ?a ?b] => lazymatch a with c_ty _ => fail | _ => ev_lit (bytes_eqb a b) end
  | |- context [contains ?a ?b] => lazymatch b with c_ty _ => fail | _ => ev_lit (contains a b) end
  end.

(* turn the tests a shape makes of a child into equations on its type, field name and namedness *)
Ltac atoms :=
  repeat match goal with
  | H : tok _ _ = true |- _ => apply tok_eq in H; destruct H as [? [? ?]]
  | H : is_ty _ _ = true |- _ => apply is_ty_eq in H
  | H : has_field _ _ = true |- _ => apply has_field_eq in H
  | H : no_field _ = true |- _ => apply no_field_eq in H
  | H : negb _ = true |- _ => apply negb_true_iff in H
  | H : is_ty _ _ = false |- _ => unfold is_ty in H
  end.

(* use these equations to evaluate the tests of the goal *)
Ltac use_atoms :=
  unfold is_ty, has_field, no_field;
  repeat match goal with
  | H : c_ty ?k = _ |- context [c_ty ?k] => rewrite H
  | H : c_field ?k = _ |- context [c_field ?k] => rewrite H
  | H : c_named ?k = _ |- context [c_named ?k] => rewrite H
  | H : bytes_eqb (c_ty ?k) ?t = false |- context [bytes_eqb (c_ty ?k) ?t] => rewrite H
  | H : contains ?s (c_ty ?k) = _ |- context [contains ?s (c_ty ?k)] => rewrite H
  end;
  ev_eqb; cbn [andb orb negb].

(* the head of [entities_of]: dispatch on the node type.  The chain of comparisons with the literal
   type is evaluated in one pass; [ev_eqb], which replaces one comparison at a time, is slower here *)
Ltac dispatch Hty :=
  unfold entities_of; rewrite Hty;
  lazy beta iota zeta delta [bytes_eqb beqb Byte.eqb Byte.to_bits Bool.eqb andb orb].

(* open a shape hypothesis [Hs : is_ty T n && match l with ... end = true], [l] the children or the
   parts of [n]: one goal for each length of [l] the shape admits *)
Ltac open_shape Hs l Hty Ek :=
  apply andb_true_iff in Hs as [Hty Hs]; apply is_ty_eq in Hty;
  destruct l eqn:Ek; [try discriminate Hs|];
  repeat match type of Hs with
  | context [match ?l with [] => _ | _ :: _ => _ end] => destruct l; try discriminate Hs
  end;
  split_andb; atoms.

(* read children off the list named by [Ek], by field name, type or position *)
Ltac read_kids Ek :=
  unfold field_text_opt, field_text, child_of_type, child, child_by_field, named_kids, part_at;
  rewrite ?named_parts_eq, ?Ek; cbn [nth_error find filter opt_content deref bind]; use_atoms;
  cbn [nth_error find filter opt_content deref bind].

Theorem binop_kind_table :
  List.map (fun p => binop_kind (fst p)) java_binops = List.map (fun p => Some (snd p)) java_binops
  /\ List.map fst java_binops =
       ["+"; "-"; "*"; "/"; ">"; "<"; ">="; "<="; "%"; ">>"; "<<"; "!="; "=="; "&"; "&&"; "||"; "|"; ">>>"; "^"]
  /\ List.map (fun op => binop_kind op)
       ["+"; "-"; "*"; "/"; ">"; "<"; ">="; "<="; "%"; ">>"; "<<"; "!="; "=="; "&"; "&&"; "||"; "|"; ">>>"; "^"]
     = [Some "add_expression"; Some "sub_expression"; Some "mul_expression"; Some "div_expression";
        Some "comp_expression"; Some "comp_expression"; Some "comp_expression"; Some "comp_expression";
        Some "rem_expression"; Some "right_shift_expression"; Some "left_shift_expression";
        Some "ne_expression"; Some "eq_expression"; Some "bitwise_and_expression";
        Some "and_expression"; Some "or_expression"; Some "bitwise_or_expression";
        Some "bitwise_right_shift_expression"; Some "bitwise_xor_expression"].
Proof. repeat split; vm_compute; reflexivity. Qed.
Print Assumptions binop_kind_table.

Theorem binary_decoded src file prev n :
  binary_shape n = true ->
  exists es, entities_of src file prev n = Ok es
    /\ List.map n_type es = binary_kinds n
    /\ Forall (fun e => n_bin e = binary_spec src n) es
    /\ (length es = 2 \/ length es = 1).
Proof.
  unfold binary_shape. intro Hs. open_shape Hs (c_kids n) Hty Ek.
  dispatch Hty. unfold binary_kinds, binary_spec. read_kids Ek.
  destruct (lookup_binop _) as [[idp k]|]; eexists; (split; [reflexivity|]); cbn [app map length];
    (split; [reflexivity|]); (split; [repeat constructor|]); auto.
Qed.
Print Assumptions binary_decoded.

(* if, while, for and do statements: the builder reads the parts by field name, as the specification
   does, so the entity is the specified one on any node of the type *)
Lemma if_entity src file prev n :
  c_ty n = "if_statement" ->
  entities_of src file prev n = Ok [stmt_entity "ifstmt" "IfStmt" src n file (if_spec src n)].
Proof. intro Hty. dispatch Hty. reflexivity. Qed.

Lemma while_entity src file prev n :
  c_ty n = "while_statement" ->
  entities_of src file prev n = Ok [stmt_entity "while_stmt" "WhileStmt" src n file (while_spec src n)].
Proof. intro Hty. dispatch Hty. reflexivity. Qed.

Lemma do_entity src file prev n :
  c_ty n = "do_statement" ->
  entities_of src file prev n = Ok [stmt_entity "dowhile_stmt" "DoStmt" src n file (do_spec src n)].
Proof. intro Hty. dispatch Hty. reflexivity. Qed.

Lemma for_entity src file prev n :
  c_ty n = "for_statement" ->
  entities_of src file prev n = Ok [stmt_entity "for_stmt" "ForStmt" src n file (for_spec src n)].
Proof. intro Hty. dispatch Hty. reflexivity. Qed.

(* of the shape, here and for while and for, only the node type is used *)
Theorem if_decoded src file prev n :
  if_shape n = true ->
  entities_of src file prev n = Ok [stmt_entity "ifstmt" "IfStmt" src n file (if_spec src n)].
Proof.
  unfold if_shape. intro Hs. apply andb_true_iff in Hs as [Hs _]. apply andb_true_iff in Hs as [Hty _].
  apply if_entity, is_ty_eq, Hty.
Qed.
Print Assumptions if_decoded.

Lemma if_spec_explicit src n :
  if_shape n = true ->
  exists c t, child_by_field n "condition" = Some c /\ child_by_field n "consequence" = Some t
    /\ if_spec src n = SIf (Some (content src c)) (content src t) (field_text src n "alternative").
Proof.
  unfold if_shape. intro Hs. apply andb_true_iff in Hs as [Hs Hk]. apply andb_true_iff in Hs as [_ Hc].
  unfold if_spec, field_text_opt, field_text. rewrite !child_by_field_parts by exact Hc.
  destruct (parts n) as [|k [|c [|t [|el [|e [|? ?]]]]]]; try discriminate Hk;
    split_andb; atoms; cbn [find]; use_atoms; do 2 eexists; repeat split; reflexivity.
Qed.

Theorem while_decoded src file prev n :
  while_shape n = true ->
  entities_of src file prev n = Ok [stmt_entity "while_stmt" "WhileStmt" src n file (while_spec src n)].
Proof.
  unfold while_shape. intro Hs. apply andb_true_iff in Hs as [Hs _]. apply andb_true_iff in Hs as [Hty _].
  apply while_entity, is_ty_eq, Hty.
Qed.
Print Assumptions while_decoded.

Lemma while_spec_explicit src n :
  while_shape n = true ->
  exists c, child_by_field n "condition" = Some c /\ while_spec src n = SWhile (Some (content src c)).
Proof.
  unfold while_shape. intro Hs. apply andb_true_iff in Hs as [Hs Hk]. apply andb_true_iff in Hs as [_ Hc].
  unfold while_spec, field_text_opt. rewrite !child_by_field_parts by exact Hc.
  destruct (parts n) as [|k [|c [|b [|? ?]]]]; try discriminate Hk.
  split_andb. atoms. cbn [find]. use_atoms. eexists. split; reflexivity.
Qed.

Theorem do_decoded src file prev n :
  do_shape n = true ->
  entities_of src file prev n = Ok [stmt_entity "dowhile_stmt" "DoStmt" src n file (do_spec src n)]
  /\ exists c, child_by_field n "condition" = Some c /\ do_spec src n = SDo (Some (content src c)).
Proof.
  unfold do_shape. intro Hs. open_shape Hs (c_kids n) Hty Ek. split; [exact (do_entity src file prev n Hty)|].
  unfold do_spec. read_kids Ek. eexists. split; reflexivity.
Qed.
Print Assumptions do_decoded.

Theorem for_decoded src file prev n :
  for_shape n = true ->
  entities_of src file prev n = Ok [stmt_entity "for_stmt" "ForStmt" src n file (for_spec src n)].
Proof.
  unfold for_shape. intro Hs. apply andb_true_iff in Hs as [Hty _]. apply for_entity, is_ty_eq, Hty.
Qed.
Print Assumptions for_decoded.

(* the label of a break or continue statement: its only identifier child *)
Lemma jump_label src ty kw n :
  jump_shape ty kw n = true -> bytes_eqb kw "identifier" = false ->
  c_ty n = ty /\ last_ident_label src n = label_spec src n.
Proof.
  unfold jump_shape, last_ident_label, label_spec. intros Hs Hkw.
  open_shape Hs (c_kids n) Hty Ek; (split; [exact Hty|]); read_kids Ek; cbn [fold_left]; use_atoms; rewrite Hkw;
    reflexivity.
Qed.

Theorem break_decoded src file prev n :
  break_shape n = true ->
  entities_of src file prev n = Ok [stmt_entity "breakstmt" "BreakStmt" src n file (break_spec src n)].
Proof.
  intro Hs. unfold break_spec. destruct (jump_label src _ _ n Hs eq_refl) as [Hty <-]. dispatch Hty. reflexivity.
Qed.
Print Assumptions break_decoded.

Theorem continue_decoded src file prev n :
  continue_shape n = true ->
  entities_of src file prev n = Ok [stmt_entity "continuestmt" "ContinueStmt" src n file (continue_spec src n)].
Proof.
  intro Hs. unfold continue_spec. destruct (jump_label src _ _ n Hs eq_refl) as [Hty <-]. dispatch Hty. reflexivity.
Qed.
Print Assumptions continue_decoded.

Theorem yield_decoded src file prev n :
  yield_shape n = true ->
  entities_of src file prev n = Ok [stmt_entity "yield" "YieldStmt" src n file (yield_spec src n)].
Proof.
  unfold yield_shape. intro Hs.
  open_shape Hs (parts n) Hty Ek; dispatch Hty; unfold yield_spec; read_kids Ek; reflexivity.
Qed.
Print Assumptions yield_decoded.

Theorem assert_decoded src file prev n :
  assert_shape n = true ->
  entities_of src file prev n = Ok [stmt_entity "assert" "AssertStmt" src n file (assert_spec src n)].
Proof.
  unfold assert_shape. intro Hs.
  open_shape Hs (parts n) Hty Ek; dispatch Hty; unfold assert_spec; read_kids Ek; reflexivity.
Qed.
Print Assumptions assert_decoded.

Theorem return_decoded src file prev n :
  return_shape n = true ->
  entities_of src file prev n = Ok [stmt_entity "return" "ReturnStmt" src n file (return_spec src n)].
Proof.
  unfold return_shape. intro Hs.
  open_shape Hs (parts n) Hty Ek; dispatch Hty; unfold return_spec; read_kids Ek; reflexivity.
Qed.
Print Assumptions return_decoded.

Lemma block_tail_split ks :
  block_tail ks = true ->
  exists m kl, ks = m ++ [kl] /\ tok "}" kl = true /\ filter c_named m = m.
Proof.
  induction ks as [|k r IH]; [discriminate|]. cbn [block_tail].
  destruct r as [|k' r'].
  - intro H. exists [], k. repeat split; assumption.
  - intro H. apply andb_true_iff in H as [Hn Hr]. destruct (IH Hr) as [m [kl [E [Ht Hf]]]].
    exists (k :: m), kl. rewrite E. repeat split; [exact Ht|]. cbn [filter]. rewrite Hn, Hf. reflexivity.
Qed.

(* D29 (known finding): the builder's statement list is the block's statements (the named children
   that are not comments), in source order, wrapped in the texts of the two brace tokens *)
Theorem block_stmts_with_braces src file prev n :
  block_shape n = true -> block_braces src n = true ->
  entities_of src file prev n = Ok [stmt_entity "block" "BlockStmt" src n file (block_spec src n)]
  /\ block_spec src n = SBlock (["{"] ++ List.map (content src) (named_parts n) ++ ["}"]).
Proof.
  unfold block_shape, block_braces. intros Hs Hb. apply andb_true_iff in Hs as [Hty Hs]. apply is_ty_eq in Hty.
  split; [|reflexivity].
  dispatch Hty. unfold block_spec, block_stmts. rewrite named_parts_eq. unfold parts.
  destruct (c_kids n) as [|k0 r] eqn:Ek; [discriminate|].
  apply andb_true_iff in Hs as [Hk0 Hr]. apply block_tail_split in Hr as [m [kl [E [Hkl Hm]]]]. subst r.
  apply tok_eq in Hk0 as [Ht0 [Hn0 _]]. apply tok_eq in Hkl as [Htl [Hnl _]].
  assert (Hc0 : not_comment k0 = true) by (apply not_comment_ty; rewrite Ht0; reflexivity).
  assert (Hcl : not_comment kl = true) by (apply not_comment_ty; rewrite Htl; reflexivity).
  apply andb_true_iff in Hb as [Hb0 Hbl]. rewrite rev_app_distr in Hbl. cbn [rev app] in Hbl.
  apply bytes_eqb_true in Hb0, Hbl.
  cbn [filter]. rewrite Hc0. cbn [filter map]. rewrite Hn0, !filter_app. cbn [filter]. rewrite Hcl.
  cbn [filter]. rewrite Hnl, app_nil_r.
  rewrite (filter_comm c_named not_comment m), Hm.
  rewrite map_app. cbn [map]. rewrite Hb0, Hbl. reflexivity.
Qed.
Print Assumptions block_stmts_with_braces.

(* in an argument list the children the builder skips by type are the tokens *)
Lemma tok_punct t k : tok t k = true -> punct_stop t = true -> negb (punct_stop (c_ty k)) = c_named k.
Proof. intros Ht Hp. apply tok_eq in Ht as [Hk [Hn _]]. rewrite Hk, Hn, Hp. reflexivity. Qed.

Lemma args_tail_named ks :
  args_tail ks = true -> forall k, In k ks -> negb (punct_stop (c_ty k)) = c_named k.
Proof.
  induction ks as [|k r IH]; [discriminate|]. cbn [args_tail]. intros H x Hx. destruct r as [|k' r'].
  - destruct Hx as [<-|[]]. apply (tok_punct ")"); [exact H|reflexivity].
  - apply andb_true_iff in H as [Hk Hr]. destruct Hx as [<-|Hx]; [|apply IH; assumption].
    destruct (c_named k) eqn:En; [exact Hk|]. rewrite <- En. apply (tok_punct ","); [exact Hk|reflexivity].
Qed.

Lemma arglist_args a :
  arglist_shape a = true ->
  c_ty a = "argument_list"
  /\ filter (fun x => negb (punct_stop (c_ty x)) && not_comment x) (c_kids a) = named_parts a.
Proof.
  unfold arglist_shape. intro H. apply andb_true_iff in H as [Hty H]. split; [apply is_ty_eq, Hty|].
  rewrite (filter_andb (fun x => negb (punct_stop (c_ty x))) not_comment). unfold named_parts, named_kids. f_equal.
  destruct (c_kids a) as [|k0 r]; [discriminate|]. apply andb_true_iff in H as [H0 Hr].
  apply filter_ext_in. intros x [<-|Hx].
  - apply (tok_punct "("); [exact H0|reflexivity].
  - apply (args_tail_named r Hr x Hx).
Qed.

Lemma extract_method_name_decl src n file :
  c_ty n = "method_declaration" ->
  exists idp, extract_method_name src n file = Ok (last_ident_label src n, idp).
Proof.
  intro Hty. unfold extract_method_name, last_ident_label, is_ty at 1. rewrite Hty. ev_eqb. cbn [bind].
  match goal with |- context [fold_left ?f (c_kids n) ([], [])] =>
    assert (HF : forall l a ps, fst (fold_left f l (a, ps))
      = fold_left (fun acc ch => if is_ty "identifier" ch then content src ch else acc) l a)
  end.
  { induction l as [|k l IH]; intros a ps; cbn [fold_left]; [reflexivity|].
    destruct (is_ty "identifier" k); [apply IH|]. destruct (is_ty "formal_parameters" k); apply IH. }
  rewrite <- (HF _ _ []). destruct (fold_left _ _ _). eexists. reflexivity.
Qed.

Definition dotted_name (src : bytes) (ks : list cst) (name : bytes) : bytes :=
  fold_left (fun name ch => if is_ty "identifier" ch
                            then match name with [] => content src ch | _ => name ++ "." ++ content src ch end
                            else name) ks name.

(* [extract_method_name] looks for the arguments of an invocation under the field name argument_list;
   the grammar's field is arguments, so on a parsed tree the lookup finds nothing *)
Lemma extract_method_name_call src n file :
  c_ty n = "method_invocation" -> child_by_field n "argument_list" = None ->
  exists idp, extract_method_name src n file = Ok (dotted_name src (c_kids n) [], idp).
Proof.
  intros Hty Hal. unfold extract_method_name. rewrite Hal. unfold is_ty. rewrite Hty. ev_eqb.
  match goal with |- context [fold_left ?f (c_kids n) (Ok ([], []))] =>
    assert (HF : forall l a ps, fold_left f l (Ok (a, ps)) = Ok (dotted_name src l a, ps))
  end.
  { induction l as [|k l IH]; intros a ps; [reflexivity|]. apply IH. }
  rewrite HF. cbn [bind]. eexists. reflexivity.
Qed.

Lemma call_parts src n :
  call_shape n = true -> call_side src n = true ->
  child_by_field n "argument_list" = None
  /\ dotted_name src (c_kids n) [] = call_name_spec src n
  /\ call_args src n = call_args_spec src n.
Proof.
  unfold call_shape, call_side, call_name_spec, call_args_spec, call_args, dotted_name. intros Hs Hside.
  open_shape Hs (c_kids n) Hty Ek;
    match goal with H : arglist_shape _ = true |- _ => apply arglist_args in H as [Hat _] end;
    revert Hside; read_kids Ek; cbn [fold_left flat_map]; use_atoms; rewrite app_nil_r; intro Hside;
    repeat split; try reflexivity.
  match goal with _ : c_kids n = [?o; _; _; _] |- _ =>
    destruct (bytes_eqb (c_ty o) "identifier"); [destruct (content src o); [discriminate Hside|]|]; reflexivity
  end.
Qed.

Theorem call_decoded src file prev n :
  call_shape n = true -> call_side src n = true ->
  exists e, entities_of src file prev n = Ok [e]
    /\ n_type e = "method_invocation"
    /\ n_name e = call_name_spec src n
    /\ n_argv e = call_args_spec src n.
Proof.
  intros Hs Hside. destruct (call_parts src n Hs Hside) as (Hal & Hnm & Hargs).
  apply andb_true_iff in Hs as [Hty _]. apply is_ty_eq in Hty.
  destruct (extract_method_name_call src n file Hty Hal) as [idp Hemn].
  dispatch Hty. rewrite Hemn, Hnm, Hargs. cbn [bind]. eexists. repeat split; reflexivity.
Qed.
Print Assumptions call_decoded.

Lemma new_attrs_spec src n : new_shape n = true -> new_attrs src n = new_spec src n.
Proof.
  unfold new_shape, new_type, new_attrs, new_spec. intro Hs.
  open_shape Hs (c_kids n) Hty Ek;
    match goal with H : arglist_shape _ = true |- _ => apply arglist_args in H as [Hat Hnp] end;
    match goal with H : _ || _ = true |- _ => apply orb_true_iff in H as [H|H]; apply is_ty_eq in H end;
    read_kids Ek; cbn [fold_left]; use_atoms; rewrite Hnp; reflexivity.
Qed.

Theorem new_decoded src file prev n :
  new_shape n = true ->
  exists e, entities_of src file prev n = Ok [e]
    /\ n_type e = "ClassInstanceExpr"
    /\ n_name e = fst (new_spec src n)
    /\ n_new e = Some (new_spec src n).
Proof.
  intro Hs. pose proof (new_attrs_spec src n Hs) as Ha. apply andb_true_iff in Hs as [Hty _]. apply is_ty_eq in Hty.
  dispatch Hty. rewrite Ha. destruct (new_spec src n). eexists. repeat split; reflexivity.
Qed.
Print Assumptions new_decoded.

(* The loops of the builder over the children of a declaration react to a child by its type, and the
   specifications look children up by type or by field name.  Each loop is first written as a loop
   over the children of the types it reacts to ([method_attrs_filter], [class_attrs_filter],
   [var_attrs_filter]: any node); under the shape each of these types has at most one child, the one
   the specification reads ([method_kids], [class_kids]; for a variable declaration, within
   [var_attrs_spec]). *)

Definition param_texts (src : bytes) (p : cst) : list (bytes * bytes) :=
  flat_map (fun q => match child_by_field q "type", child_by_field q "name" with
                     | Some pt, Some pn => [(content src pt, content src pn)]
                     | _, _ => []
                     end) (filter (is_ty "formal_parameter") (named_kids p)).

Lemma param_texts_ok src p :
  forallb param_ok (named_kids p) = true ->
  param_texts src p = List.map (fun q => (field_text src q "type", field_text src q "name"))
                        (filter (is_ty "formal_parameter") (named_kids p)).
Proof.
  unfold param_texts. induction (named_kids p) as [|q qs IH]; [reflexivity|]. cbn [forallb filter].
  intro H. apply andb_true_iff in H as [Hq H]. unfold param_ok in Hq.
  destruct (is_ty "formal_parameter" q); [|exact (IH H)]. cbn [flat_map map]. unfold field_text.
  destruct (child_by_field q "type"), (child_by_field q "name"); try discriminate Hq. rewrite (IH H). reflexivity.
Qed.

Lemma method_attrs_filter src n :
  method_attrs src n =
  let ps := flat_map (param_texts src) (filter (is_ty "formal_parameters") (c_kids n)) in
  (fold_left (fun _ m => content src m) (filter (is_ty "modifiers") (c_kids n)) [],
   flat_map (fun t => List.map (content src) (filter (is_ty "type_identifier") (named_kids t)))
     (filter (is_ty "throws") (c_kids n)),
   List.map fst ps, List.map snd ps,
   flat_map (marker_annotations src) (filter (is_ty "modifiers") (c_kids n))).
Proof.
  unfold method_attrs. induction (c_kids n) as [|k ks IH] using rev_ind; [reflexivity|].
  rewrite fold_left_app, IH, !filter_app, !flat_map_app, !map_app, fold_left_app. cbn [fold_left filter].
  destruct (is_ty "throws" k) eqn:Et.
  { rewrite !(is_ty_ty _ _ k Et). cbn [flat_map fold_left map]. rewrite !app_nil_r. reflexivity. }
  destruct (is_ty "modifiers" k) eqn:Em.
  { rewrite (is_ty_ty _ _ k Em). cbn [flat_map fold_left map]. rewrite !app_nil_r. reflexivity. }
  destruct (is_ty "formal_parameters" k); cbn [flat_map fold_left map]; rewrite !app_nil_r; [|reflexivity].
  (* the loop over the parameters, from any state *)
  unfold param_texts. match goal with |- fold_left _ _ (?m, ?th, ?a, ?v, ?an) = _ => generalize m, th, a, v, an end.
  induction (named_kids k) as [|q qs IHq]; intros m th a v an; cbn [fold_left filter];
    [cbn [flat_map map]; rewrite !app_nil_r; reflexivity|].
  destruct (is_ty "formal_parameter" q); [|apply IHq]. cbn [flat_map].
  destruct (child_by_field q "type"), (child_by_field q "name"); try apply IHq.
  rewrite IHq. cbn [map app fst snd]. rewrite <- !app_assoc. reflexivity.
Qed.

(* the children are  modifiers? type_parameters? type name parameters dimensions? throws? body-or-";" *)
Lemma method_kids n :
  method_shape n = true ->
  exists om nm p oth,
    filter (is_ty "modifiers") (c_kids n) = olist om
    /\ filter (is_ty "throws") (c_kids n) = olist oth
    /\ filter (is_ty "formal_parameters") (c_kids n) = [p]
    /\ filter (is_ty "identifier") (c_kids n) = [nm]
    /\ child_by_field n "name" = Some nm
    /\ child_by_field n "parameters" = Some p /\ forallb param_ok (named_kids p) = true.
Proof.
  unfold method_shape. intro H. apply andb_true_iff in H as [_ H].
  destruct (skip_opt_olist mods_ok (c_kids n)) as [om [E1 Hm]]. apply forallb_andb in Hm as [Hm Hmf].
  destruct (skip_opt_olist (fun k => is_ty "type_parameters" k && has_field "type_parameters" k)
              (skip_opt mods_ok (c_kids n))) as [otp [E2 Htp]]. apply forallb_andb in Htp as [Htp Htpf].
  destruct (skip_opt _ (skip_opt mods_ok _)) as [|t [|nm [|p rest]]]; try discriminate H.
  destruct (skip_opt_olist (is_ty "dimensions") rest) as [od [E3 Hd]].
  destruct (skip_opt_olist (is_ty "throws") (skip_opt (is_ty "dimensions") rest)) as [oth [E4 Hth]].
  apply andb_true_iff in H as [H Hb].
  destruct (skip_opt _ (skip_opt _ rest)) as [|b [|? ?]]; try discriminate Hb.
  assert (Ek : c_kids n = olist om ++ olist otp ++ [t; nm; p] ++ olist od ++ olist oth ++ [b])
    by (rewrite E1, E2, E3, E4; reflexivity).
  (* the body or ";" has none of the types looked for *)
  assert (Hb' : forall T, bytes_eqb "block" T = false -> bytes_eqb ";" T = false -> is_ty T b = false).
  { apply orb_true_iff in Hb as [Hb|Hb]; split_andb; atoms; intros T ? ?; use_atoms; assumption. }
  unfold method_type_ok, formal_params_shape in H. split_andb. atoms.
  exists om, nm, p, oth. repeat split; [..|assumption].
  1-4: rewrite Ek, !filter_app, (filter_decided _ _ _ _ Hm (is_ty_ty _ _)), (filter_decided _ _ _ _ Htp (is_ty_ty _ _)),
         (filter_decided _ _ _ _ Hd (is_ty_ty _ _)), (filter_decided _ _ _ _ Hth (is_ty_ty _ _)); cbn [filter];
       rewrite Hb' by reflexivity; use_atoms; cbn [app]; rewrite ?app_nil_r; reflexivity.
  all: rewrite child_by_field_find, find_filter, Ek, !filter_app, (filter_decided _ _ _ _ Hmf (no_field_field _)),
         (filter_decided _ _ _ _ Htpf (has_field_field _ _)); cbn [filter]; use_atoms; reflexivity.
Qed.

Lemma method_attrs_spec src n :
  method_shape n = true ->
  last_ident_label src n = method_name_spec src n
  /\ method_attrs src n =
    (modifiers_text src n, method_throws_spec src n,
     List.map fst (method_params_spec src n), List.map snd (method_params_spec src n),
     annotations_spec src n).
Proof.
  intro H. destruct (method_kids n H) as (om & nm & p & oth & Hm & Hth & Hp & Hn & Hnf & Hpf & Hps).
  unfold last_ident_label, method_name_spec, field_text, modifiers_text, method_throws_spec,
    method_params_spec, annotations_spec, child_of_type.
  rewrite method_attrs_filter, (fold_left_filter _ (fun _ k => content src k)), Hnf, Hpf, (find_only _ _ _ Hm),
    (find_only _ _ _ Hth), Hm, Hth, Hp, Hn.
  cbn [flat_map]. rewrite app_nil_r, (param_texts_ok src p Hps).
  destruct om, oth; cbn [olist flat_map]; rewrite ?app_nil_r; split; reflexivity.
Qed.

Theorem method_decoded src file prev n :
  method_shape n = true ->
  exists e, entities_of src file prev n = Ok [e]
    /\ n_type e = "method_declaration"
    /\ n_name e = method_name_spec src n
    /\ n_ret e = method_ret_spec src n
    /\ n_mod e = visibility_spec src n
    /\ n_argt e = List.map fst (method_params_spec src n)
    /\ n_argv e = List.map snd (method_params_spec src n)
    /\ n_throws e = method_throws_spec src n
    /\ n_annot e = annotations_spec src n
    /\ n_doc e = decl_javadoc src prev.
Proof.
  intro Hs. destruct (method_attrs_spec src n Hs) as [Hl Ha].
  unfold method_shape in Hs. apply andb_true_iff in Hs as [Hty _]. apply is_ty_eq in Hty.
  destruct (extract_method_name_decl src n file Hty) as [idp Hemn].
  dispatch Hty. rewrite Hemn, Ha, Hl. cbn [bind]. eexists. split; [reflexivity|].
  cbn [n_type n_name n_ret n_mod n_argt n_argv n_throws n_annot n_doc]. repeat split; reflexivity.
Qed.
Print Assumptions method_decoded.

Lemma class_attrs_filter src n :
  class_attrs src n =
  (fold_left (fun _ m => content src m) (filter (is_ty "modifiers") (c_kids n)) [],
   flat_map (marker_annotations src) (filter (is_ty "modifiers") (c_kids n)),
   fold_left (fun s c => fold_left (fun s k => if is_ty "type_identifier" k then content src k else s) (c_kids c) s)
     (filter (is_ty "superclass") (c_kids n)) [],
   flat_map (fun c => flat_map (fun tl => List.map (content src) (filter not_comment (named_kids tl))) (c_kids c))
     (filter (is_ty "super_interfaces") (c_kids n))).
Proof.
  unfold class_attrs. induction (c_kids n) as [|k ks IH] using rev_ind; [reflexivity|].
  rewrite fold_left_app, IH, !filter_app, !flat_map_app, !fold_left_app. cbn [fold_left filter].
  destruct (is_ty "modifiers" k), (is_ty "superclass" k), (is_ty "super_interfaces" k);
    cbn [fold_left flat_map]; rewrite ?app_nil_r; reflexivity.
Qed.

Lemma superclass_text src o :
  forallb superclass_shape (olist o) = true ->
  fold_left (fun s c => fold_left (fun s k => if is_ty "type_identifier" k then content src k else s) (c_kids c) s)
    (olist o) []
  = match o with
    | Some c => match named_kids c with [t] => if is_ty "type_identifier" t then content src t else [] | _ => [] end
    | None => []
    end.
Proof.
  destruct o as [c|]; [|reflexivity]. cbn [olist forallb fold_left]. rewrite andb_true_r.
  unfold superclass_shape, named_kids. intro H. apply andb_true_iff in H as [_ H].
  destruct (c_kids c) as [|k [|t [|? ?]]]; try discriminate H. split_andb. atoms.
  cbn [fold_left filter]. use_atoms. reflexivity.
Qed.

Lemma super_interfaces_texts src o :
  forallb super_interfaces_shape (olist o) = true ->
  flat_map (fun c => flat_map (fun tl => List.map (content src) (filter not_comment (named_kids tl))) (c_kids c))
    (olist o)
  = match o with
    | Some c => match child_of_type c "type_list" with Some tl => List.map (content src) (named_parts tl) | None => [] end
    | None => []
    end.
Proof.
  destruct o as [c|]; [|reflexivity]. cbn [olist forallb flat_map]. rewrite andb_true_r, app_nil_r.
  unfold super_interfaces_shape, child_of_type, type_list_shape, is_nil, named_parts. intro H.
  apply andb_true_iff in H as [_ H].
  destruct (c_kids c) as [|k [|tl [|? ?]]]; try discriminate H. split_andb.
  cbn [flat_map find]. unfold named_kids at 1. destruct (c_kids k); [|discriminate]. atoms.
  use_atoms. apply app_nil_r.
Qed.

(* the children are  modifiers? "class" name type_parameters? superclass? super_interfaces? body *)
Lemma class_kids n :
  class_shape n = true ->
  exists om nm osc osi,
    filter (is_ty "modifiers") (c_kids n) = olist om
    /\ filter (is_ty "superclass") (c_kids n) = olist osc
    /\ filter (is_ty "super_interfaces") (c_kids n) = olist osi
    /\ child_by_field n "name" = Some nm
    /\ forallb superclass_shape (olist osc) = true /\ forallb super_interfaces_shape (olist osi) = true.
Proof.
  unfold class_shape. intro H. apply andb_true_iff in H as [_ H].
  destruct (skip_opt_olist mods_ok (c_kids n)) as [om [E1 Hm]]. apply forallb_andb in Hm as [Hm Hmf].
  destruct (skip_opt mods_ok (c_kids n)) as [|k [|nm rest]]; try discriminate H.
  destruct (skip_opt_olist (is_ty "type_parameters") rest) as [otp [E2 Htp]].
  destruct (skip_opt_olist superclass_shape (skip_opt (is_ty "type_parameters") rest)) as [osc [E3 Hsc]].
  destruct (skip_opt_olist super_interfaces_shape (skip_opt superclass_shape (skip_opt (is_ty "type_parameters") rest)))
    as [osi [E4 Hsi]].
  apply andb_true_iff in H as [H Hb].
  destruct (skip_opt _ (skip_opt _ (skip_opt _ rest))) as [|b [|? ?]]; try discriminate Hb.
  assert (Ek : c_kids n = olist om ++ [k; nm] ++ olist otp ++ olist osc ++ olist osi ++ [b])
    by (rewrite E1, E2, E3, E4; reflexivity).
  destruct (proj1 (forallb_andb _ _ _) Hsc) as [Hsc' _]. destruct (proj1 (forallb_andb _ _ _) Hsi) as [Hsi' _].
  split_andb. atoms.
  exists om, nm, osc, osi. repeat split; [..|exact Hsc|exact Hsi].
  1-3: rewrite Ek, !filter_app, (filter_decided _ _ _ _ Hm (is_ty_ty _ _)), (filter_decided _ _ _ _ Htp (is_ty_ty _ _)),
         (filter_decided _ _ _ _ Hsc' (is_ty_ty _ _)), (filter_decided _ _ _ _ Hsi' (is_ty_ty _ _)); cbn [filter];
       use_atoms; cbn [app]; rewrite ?app_nil_r; reflexivity.
  rewrite child_by_field_find, find_filter, Ek, !filter_app, (filter_decided _ _ _ _ Hmf (no_field_field _)).
  cbn [filter]. use_atoms. reflexivity.
Qed.

Lemma class_attrs_spec src n :
  class_shape n = true ->
  class_attrs src n =
    (modifiers_text src n, annotations_spec src n, class_super_spec src n, class_ifaces_spec src n)
  /\ exists nm, child_by_field n "name" = Some nm.
Proof.
  intro H. destruct (class_kids n H) as (om & nm & osc & osi & Hm & Hsc & Hsi & Hnf & Hscs & Hsis).
  split; [|exists nm; exact Hnf].
  unfold modifiers_text, annotations_spec, class_super_spec, class_ifaces_spec, child_of_type.
  rewrite class_attrs_filter, (find_only _ _ _ Hm), (find_only _ _ _ Hsc), (find_only _ _ _ Hsi), Hm, Hsc, Hsi,
    (superclass_text src osc Hscs), (super_interfaces_texts src osi Hsis).
  destruct om; cbn [olist fold_left flat_map]; rewrite ?app_nil_r; reflexivity.
Qed.

Theorem class_decoded src file prev n :
  class_shape n = true ->
  exists e, entities_of src file prev n = Ok [e]
    /\ n_type e = "class_declaration"
    /\ n_name e = class_name_spec src n
    /\ n_mod e = visibility_spec src n
    /\ n_super e = class_super_spec src n
    /\ n_iface e = class_ifaces_spec src n
    /\ n_annot e = annotations_spec src n
    /\ n_doc e = decl_javadoc src prev.
Proof.
  intro Hs. destruct (class_attrs_spec src n Hs) as [Ha [nm Hnm]].
  unfold class_shape in Hs. apply andb_true_iff in Hs as [Hty _]. apply is_ty_eq in Hty.
  dispatch Hty. unfold class_name_spec, field_text. rewrite Hnm, Ha. cbn [deref bind]. eexists. split; [reflexivity|].
  cbn [n_type n_name n_mod n_super n_iface n_annot n_doc]. repeat split; reflexivity.
Qed.
Print Assumptions class_decoded.

Lemma declarator_spec src d nm0 :
  declarator_shape d = true ->
  declarator src d nm0 [] =
    (field_text src d "name",
     match child_by_field d "value" with
     | Some v => remove_byte nl (remove_byte x20 (content src v))
     | None => []
     end).
Proof.
  unfold declarator_shape, declarator, field_text. intro H.
  apply andb_true_iff in H as [H Hp]. apply andb_true_iff in H as [_ Hc].
  rewrite !(child_by_field_parts d) by exact Hc. rewrite init_text_parts.
  pose proof (forallb_filter not_comment (c_kids d)) as Hnc. fold (parts d) in *.
  destruct (parts d) as [|nm [|e [|v [|? ?]]]]; try discriminate Hp; split_andb; atoms;
    cbn [find init_text filter]; use_atoms; [reflexivity|].
  cbn [forallb] in Hnc. split_andb.
  repeat match goal with H : not_comment _ = true |- _ => rewrite H end.
  cbn [map concat app]. rewrite !app_nil_r. destruct (bytes_eqb (c_ty v) "="); reflexivity.
Qed.

Lemma var_attrs_filter src n :
  var_attrs src n =
  let nv := fold_left (fun nv d => declarator src d (fst nv) (snd nv))
              (filter (is_ty "variable_declarator") (c_kids n)) ([], []) in
  (fst nv,
   fold_left (fun _ t => content src t) (filter (fun k => contains "type" (c_ty k)) (c_kids n)) [],
   fold_left (fun _ m => content src m) (filter (is_ty "modifiers") (c_kids n)) [],
   snd nv).
Proof.
  unfold var_attrs. induction (c_kids n) as [|k ks IH] using rev_ind; [reflexivity|].
  rewrite fold_left_app, IH, !filter_app, !fold_left_app. cbn [fold_left filter].
  destruct (is_ty "variable_declarator" k), (is_ty "modifiers" k), (contains "type" (c_ty k));
    cbn [fold_left fst snd]; try destruct (declarator src k _ _); reflexivity.
Qed.

(* the children are  modifiers? type declarator ";" *)
Lemma var_attrs_spec src n :
  var_shape n = true ->
  var_attrs src n = (var_name_spec src n, var_type_spec src n, modifiers_text src n, var_value_spec src n).
Proof.
  unfold var_shape. intro H. apply andb_true_iff in H as [_ H].
  destruct (skip_opt_olist mods_ok (c_kids n)) as [om [Ek Hm]].
  destruct (skip_opt mods_ok (c_kids n)) as [|t [|d [|s [|? ?]]]]; try discriminate H.
  apply andb_true_iff in H as [H Hs]. apply andb_true_iff in H as [H Hd]. apply andb_true_iff in H as [Ht Hdf].
  pose proof (declarator_spec src d [] Hd) as Hds.
  unfold var_type_ok, declarator_shape in Ht, Hd. apply andb_true_iff in Hd as [Hd _]. apply andb_true_iff in Hd as [Hd _].
  unfold var_name_spec, var_type_spec, var_value_spec, modifiers_text, field_text, child_of_type.
  rewrite var_attrs_filter, !child_by_field_find, Ek.
  destruct om as [m|]; cbn [olist forallb] in Hm; unfold mods_ok in Hm; split_andb; atoms;
    cbn [olist app filter find]; use_atoms; cbn [fold_left fst snd]; rewrite Hds; reflexivity.
Qed.

Theorem var_decoded src file prev n :
  var_shape n = true ->
  exists e, entities_of src file prev n = Ok [e]
    /\ n_type e = "variable_declaration"
    /\ n_name e = var_name_spec src n
    /\ n_dtype e = var_type_spec src n
    /\ n_value e = var_value_spec src n
    /\ n_scope e = var_scope_spec n
    /\ n_mod e = visibility_spec src n.
Proof.
  intro Hs. pose proof (var_attrs_spec src n Hs) as Ha.
  unfold var_shape in Hs. apply andb_true_iff in Hs as [Hty _]. unfold var_scope_spec, visibility_spec.
  apply orb_true_iff in Hty as [Hty|Hty]; apply is_ty_eq in Hty; dispatch Hty; rewrite Ha;
    (eexists; split; [reflexivity|]); cbn [n_type n_name n_dtype n_value n_scope n_mod];
    unfold is_ty; rewrite Hty; repeat split; reflexivity.
Qed.
Print Assumptions var_decoded.

Definition ascii_nonspace (b : byte) : Prop := (code b <? 128)%N = true /\ ascii_space b = false.
Definition word (w : bytes) : Prop := w <> [] /\ Forall ascii_nonspace w.
Definition is_vis (w : bytes) : bool :=
  bytes_eqb w "public" || bytes_eqb w "private" || bytes_eqb w "protected".

Lemma word_nonspace w : word w -> w <> [] /\ forallb nonspace w = true.
Proof.
  intros [Hne Hw]. split; [exact Hne|]. apply forallb_forall. intros b Hb. apply nonspace_true.
  exact (proj1 (Forall_forall _ _) Hw b Hb).
Qed.

(* for a modifiers text made of words separated by single spaces, the extracted visibility is the
   first word among public / private / protected *)
Theorem extract_visibility_words ws :
  Forall word ws -> extract_visibility (join " " ws) = first_visibility ws.
Proof.
  intro H. unfold extract_visibility.
  rewrite fields_join_words by exact (Forall_impl _ word_nonspace H). reflexivity.
Qed.
Print Assumptions extract_visibility_words.

Theorem first_visibility_first ws :
  (exists pre w post, ws = pre ++ w :: post /\ is_vis w = true
                      /\ Forall (fun x => is_vis x = false) pre /\ first_visibility ws = w)
  \/ (Forall (fun x => is_vis x = false) ws /\ first_visibility ws = []).
Proof.
  induction ws as [|w r IH]; [right; split; [constructor|reflexivity]|].
  cbn [first_visibility]. fold (is_vis w). destruct (is_vis w) eqn:E.
  - left. exists [], w, r. repeat split; auto.
  - destruct IH as [[pre [v [post [E1 [E2 [E3 E4]]]]]]|[E1 E2]].
    + left. exists (w :: pre), v, post. subst r. repeat split; auto.
    + right. split; [constructor; assumption|exact E2].
Qed.
Print Assumptions first_visibility_first.

Example extract_visibility_example :
  extract_visibility "@Override static public final" = "public"
  /\ extract_visibility "static final" = "".
Proof. vm_compute. split; reflexivity. Qed.

(* examples: hand-built CSTs over literal sources *)
Module Examples.
(* anonymous token; token carrying a field; named node (row 0, column = start byte) *)
Definition T (ty : bytes) (sb eb : N) : cst := Cst ty false false None sb eb 0 sb [].
Definition TF (ty f : bytes) (sb eb : N) : cst := Cst ty false false (Some f) sb eb 0 sb [].
Definition L (ty : bytes) (f : option bytes) (sb eb : N) (kids : list cst) : cst :=
  Cst ty true false f sb eb 0 sb kids.

Definition bin_src : bytes := "a + b*2".
Definition bin_cst : cst :=
  L "binary_expression" None 0 7
    [L "identifier" (Some "left") 0 1 []; TF "+" "operator" 2 3;
     L "binary_expression" (Some "right") 4 7
       [L "identifier" (Some "left") 4 5 []; TF "*" "operator" 5 6;
        L "decimal_integer_literal" (Some "right") 6 7 []]].
Example binary_example :
  shape_of bin_cst = "binary"
  /\ decode bin_src None bin_cst
     = Some [("op", ["+"]); ("left", ["a"]); ("right", ["b*2"]);
             ("kinds", ["add_expression"; "binary_expression"])].
Proof. vm_compute. split; reflexivity. Qed.

Definition if_src : bytes := "if (x) y(); else z();".
Definition if_cst : cst :=
  L "if_statement" None 0 21
    [T "if" 0 2; L "parenthesized_expression" (Some "condition") 3 6 [];
     L "expression_statement" (Some "consequence") 7 11 []; T "else" 12 16;
     L "expression_statement" (Some "alternative") 17 21 []].
Example if_example :
  shape_of if_cst = "if"
  /\ if_spec if_src if_cst = SIf (Some "(x)") "y();" "z();"
  /\ decode if_src None if_cst = Some [("cond", ["(x)"]); ("then", ["y();"]); ("else", ["z();"])].
Proof. vm_compute. repeat split; reflexivity. Qed.

Definition if2_cst : cst :=
  L "if_statement" None 0 11
    [T "if" 0 2; L "parenthesized_expression" (Some "condition") 3 6 [];
     L "expression_statement" (Some "consequence") 7 11 []].
Example if_no_else_example :
  shape_of if2_cst = "if" /\ if_spec if_src if2_cst = SIf (Some "(x)") "y();" "".
Proof. vm_compute. split; reflexivity. Qed.

Definition while_src : bytes := "while (x) y();".
Definition while_cst : cst :=
  L "while_statement" None 0 14
    [T "while" 0 5; L "parenthesized_expression" (Some "condition") 6 9 [];
     L "expression_statement" (Some "body") 10 14 []].
Example while_example :
  shape_of while_cst = "while" /\ while_spec while_src while_cst = SWhile (Some "(x)").
Proof. vm_compute. split; reflexivity. Qed.

Definition do_src : bytes := "do y(); while (x);".
Definition do_cst : cst :=
  L "do_statement" None 0 18
    [T "do" 0 2; L "expression_statement" (Some "body") 3 7 []; T "while" 8 13;
     L "parenthesized_expression" (Some "condition") 14 17 []; T ";" 17 18].
Example do_example :
  shape_of do_cst = "do" /\ do_spec do_src do_cst = SDo (Some "(x)").
Proof. vm_compute. split; reflexivity. Qed.

Definition for_src : bytes := "for (i = 0; i < n; i++) f();".
Definition for_cst : cst :=
  L "for_statement" None 0 28
    [T "for" 0 3; T "(" 4 5; L "assignment_expression" (Some "init") 5 10 []; T ";" 10 11;
     L "binary_expression" (Some "condition") 12 17 []; T ";" 17 18;
     L "update_expression" (Some "update") 19 22 []; T ")" 22 23;
     L "expression_statement" (Some "body") 24 28 []].
Example for_example :
  shape_of for_cst = "for"
  /\ for_spec for_src for_cst = SFor (Some "i = 0") (Some "i < n") (Some "i++").
Proof. vm_compute. split; reflexivity. Qed.

Definition for2_src : bytes := "for (;;) f();".
Definition for2_cst : cst :=
  L "for_statement" None 0 13
    [T "for" 0 3; T "(" 4 5; T ";" 5 6; T ";" 6 7; T ")" 7 8;
     L "expression_statement" (Some "body") 9 13 []].
Example for_empty_example :
  shape_of for2_cst = "for" /\ for_spec for2_src for2_cst = SFor None None None.
Proof. vm_compute. split; reflexivity. Qed.

Definition break_src : bytes := "break outer;".
Definition break_cst : cst :=
  L "break_statement" None 0 12 [T "break" 0 5; L "identifier" None 6 11 []; T ";" 11 12].
Example break_example :
  shape_of break_cst = "break" /\ break_spec break_src break_cst = SBreak "outer".
Proof. vm_compute. split; reflexivity. Qed.

Definition continue_src : bytes := "continue;".
Definition continue_cst : cst :=
  L "continue_statement" None 0 9 [T "continue" 0 8; T ";" 8 9].
Example continue_example :
  shape_of continue_cst = "continue" /\ continue_spec continue_src continue_cst = SContinue "".
Proof. vm_compute. split; reflexivity. Qed.

Definition yield_src : bytes := "yield x + 1;".
Definition yield_cst : cst :=
  L "yield_statement" None 0 12 [T "yield" 0 5; L "binary_expression" None 6 11 []; T ";" 11 12].
Example yield_example :
  shape_of yield_cst = "yield" /\ yield_spec yield_src yield_cst = SYield "x + 1".
Proof. vm_compute. split; reflexivity. Qed.

Definition assert_src : bytes := "assert x > 0 : ""neg"";".
Definition assert_cst : cst :=
  L "assert_statement" None 0 21
    [T "assert" 0 6; L "binary_expression" None 7 12 []; T ":" 13 14;
     L "string_literal" None 15 20 []; T ";" 20 21].
Example assert_example :
  shape_of assert_cst = "assert"
  /\ assert_spec assert_src assert_cst = SAssert "x > 0" (Some """neg""").
Proof. vm_compute. split; reflexivity. Qed.
(* a detail message that is not a string literal is dropped *)
Definition assert2_cst : cst :=
  L "assert_statement" None 0 21
    [T "assert" 0 6; L "binary_expression" None 7 12 []; T ":" 13 14;
     L "identifier" None 15 20 []; T ";" 20 21].
Example assert_nonliteral_example :
  shape_of assert2_cst = "assert" /\ assert_spec assert_src assert2_cst = SAssert "x > 0" None.
Proof. vm_compute. split; reflexivity. Qed.

Definition return_src : bytes := "return x;".
Definition return_cst : cst :=
  L "return_statement" None 0 9 [T "return" 0 6; L "identifier" None 7 8 []; T ";" 8 9].
Example return_example :
  shape_of return_cst = "return" /\ return_spec return_src return_cst = SReturn (Some "x").
Proof. vm_compute. split; reflexivity. Qed.
Definition return2_cst : cst := L "return_statement" None 0 7 [T "return" 0 6; T ";" 6 7].
Example return_void_example :
  shape_of return2_cst = "return" /\ return_spec "return;" return2_cst = SReturn None.
Proof. vm_compute. split; reflexivity. Qed.

Definition block_src : bytes := "{ a(); b(); }".
Definition block_cst : cst :=
  L "block" None 0 13
    [T "{" 0 1; L "expression_statement" None 2 6 []; L "expression_statement" None 7 11 []; T "}" 12 13].
Example block_example :
  shape_of block_cst = "block" /\ side_ok block_src block_cst = true
  /\ block_stmts block_src block_cst = ["a();"; "b();"]
  /\ block_spec block_src block_cst = SBlock ["{"; "a();"; "b();"; "}"].
Proof. vm_compute. repeat split; reflexivity. Qed.

Definition call_src : bytes := "obj.run(1, ""s"")".
Definition call_cst : cst :=
  L "method_invocation" None 0 15
    [L "identifier" (Some "object") 0 3 []; T "." 3 4; L "identifier" (Some "name") 4 7 [];
     L "argument_list" (Some "arguments") 7 15
       [T "(" 7 8; L "decimal_integer_literal" None 8 9 []; T "," 9 10;
        L "string_literal" None 11 14 [L "string_fragment" None 12 13 []]; T ")" 14 15]].
Example call_example :
  shape_of call_cst = "call" /\ side_ok call_src call_cst = true
  /\ decode call_src None call_cst = Some [("name", ["obj.run"]); ("args", ["1"; "s"])].
Proof. vm_compute. repeat split; reflexivity. Qed.

Definition new_src : bytes := "new Foo(1, x)".
Definition new_cst : cst :=
  L "object_creation_expression" None 0 13
    [T "new" 0 3; L "type_identifier" (Some "type") 4 7 [];
     L "argument_list" (Some "arguments") 7 13
       [T "(" 7 8; L "decimal_integer_literal" None 8 9 []; T "," 9 10;
        L "identifier" None 11 12 []; T ")" 12 13]].
Example new_example :
  shape_of new_cst = "new"
  /\ new_spec new_src new_cst = ("Foo", [("decimal_integer_literal", "1"); ("identifier", "x")]).
Proof. vm_compute. split; reflexivity. Qed.

Definition method_src : bytes := "@Override public int f(int a, String b) throws E { }".
Definition method_cst : cst :=
  L "method_declaration" None 0 52
    [L "modifiers" None 0 16 [L "marker_annotation" None 0 9 []; T "public" 10 16];
     L "integral_type" (Some "type") 17 20 [];
     L "identifier" (Some "name") 21 22 [];
     L "formal_parameters" (Some "parameters") 22 39
       [T "(" 22 23;
        L "formal_parameter" None 23 28
          [L "integral_type" (Some "type") 23 26 []; L "identifier" (Some "name") 27 28 []];
        T "," 28 29;
        L "formal_parameter" None 30 38
          [L "type_identifier" (Some "type") 30 36 []; L "identifier" (Some "name") 37 38 []];
        T ")" 38 39];
     L "throws" None 40 48 [T "throws" 40 46; L "type_identifier" None 47 48 []];
     L "block" (Some "body") 49 52 [T "{" 49 50; T "}" 51 52]].
Example method_example :
  shape_of method_cst = "method"
  /\ decode method_src None method_cst
     = Some [("name", ["f"]); ("ret", ["int"]); ("vis", ["public"]);
             ("ptypes", ["int"; "String"]); ("pnames", ["a"; "b"]);
             ("throws", ["E"]); ("annots", ["@Override"]); ("doc", [])].
Proof. vm_compute. split; reflexivity. Qed.

Definition class_src : bytes := "/** C */ public class A extends B implements I, J { }".
Definition class_doc : cst := L "block_comment" None 0 8 [].
Definition class_cst : cst :=
  L "class_declaration" None 9 53
    [L "modifiers" None 9 15 [T "public" 9 15]; T "class" 16 21;
     L "identifier" (Some "name") 22 23 [];
     L "superclass" (Some "superclass") 24 33 [T "extends" 24 31; L "type_identifier" None 32 33 []];
     L "super_interfaces" (Some "interfaces") 34 49
       [T "implements" 34 44;
        L "type_list" None 45 49
          [L "type_identifier" None 45 46 []; T "," 46 47; L "type_identifier" None 48 49 []]];
     L "class_body" (Some "body") 50 53 [T "{" 50 51; T "}" 52 53]].
Example class_example :
  shape_of class_cst = "class"
  /\ decode class_src (Some class_doc) class_cst
     = Some [("name", ["A"]); ("vis", ["public"]); ("super", ["B"]); ("ifaces", ["I"; "J"]);
             ("annots", []); ("doc", ["/** C */"])].
Proof. vm_compute. split; reflexivity. Qed.

Definition var_src : bytes := "private int x = a + 1;".
Definition var_cst : cst :=
  L "field_declaration" None 0 22
    [L "modifiers" None 0 7 [T "private" 0 7];
     L "integral_type" (Some "type") 8 11 [];
     L "variable_declarator" (Some "declarator") 12 21
       [L "identifier" (Some "name") 12 13 []; T "=" 14 15;
        L "binary_expression" (Some "value") 16 21 []];
     T ";" 21 22].
Example var_example :
  shape_of var_cst = "var"
  /\ decode var_src None var_cst
     = Some [("name", ["x"]); ("dtype", ["int"]); ("value", ["a+1"]); ("scope", ["field"]);
             ("vis", ["private"])].
Proof. vm_compute. split; reflexivity. Qed.
(* a bare-identifier initializer: the builder took it for the variable's name (D39, repaired in ef500a6) *)
Definition var2_src : bytes := "int x = y;".
Definition var2_cst : cst :=
  L "local_variable_declaration" None 0 10
    [L "integral_type" (Some "type") 0 3 [];
     L "variable_declarator" (Some "declarator") 4 9
       [L "identifier" (Some "name") 4 5 []; T "=" 6 7; L "identifier" (Some "value") 8 9 []];
     T ";" 9 10].
Example var_identifier_initializer_example :
  shape_of var2_cst = "var"
  /\ decode var2_src None var2_cst
     = Some [("name", ["x"]); ("dtype", ["int"]); ("value", ["y"]); ("scope", ["local"]); ("vis", [""])]
  /\ option_map (List.map n_name) (match entities_of var2_src "A.java" None var2_cst with Ok l => Some l | Panic _ => None end)
     = Some ["x"].
Proof. vm_compute. repeat split; reflexivity. Qed.

(* comments between the parts (D43, repaired in 7a58cc9) *)
Definition ents (r : result (list node)) : option (list node) :=
  match r with Ok l => Some l | Panic _ => None end.

(* the comment after the condition is reported under the condition's field name, as tree-sitter does *)
Definition ifc_src : bytes := "if (x) /*c*/ y(); else z();".
Definition ifc_cst : cst :=
  L "if_statement" None 0 27
    [T "if" 0 2; L "parenthesized_expression" (Some "condition") 3 6 [];
     L "block_comment" (Some "condition") 7 12 [];
     L "expression_statement" (Some "consequence") 13 17 []; T "else" 18 22;
     L "line_comment" None 22 22 [];
     L "expression_statement" (Some "alternative") 23 27 []].
Example if_comment_example :
  shape_of ifc_cst = "if"
  /\ decode ifc_src None ifc_cst = Some [("cond", ["(x)"]); ("then", ["y();"]); ("else", ["z();"])]
  /\ option_map (List.map n_stmt) (ents (entities_of ifc_src "A.java" None ifc_cst))
     = Some [Some (SIf (Some "(x)") "y();" "z();")].
Proof. vm_compute. repeat split; reflexivity. Qed.

Definition retc_src : bytes := "return /*r*/ x;".
Definition retc_cst : cst :=
  L "return_statement" None 0 15
    [T "return" 0 6; L "block_comment" None 7 12 []; L "identifier" None 13 14 []; T ";" 14 15].
Example return_comment_example :
  shape_of retc_cst = "return" /\ return_spec retc_src retc_cst = SReturn (Some "x")
  /\ option_map (List.map n_stmt) (ents (entities_of retc_src "A.java" None retc_cst))
     = Some [Some (SReturn (Some "x"))].
Proof. vm_compute. repeat split; reflexivity. Qed.

Definition assertc_src : bytes := "assert x > 0 //t
 : ""neg"";".
Definition assertc_cst : cst :=
  L "assert_statement" None 0 26
    [T "assert" 0 6; L "binary_expression" None 7 12 []; L "line_comment" None 13 16 [];
     T ":" 18 19; L "string_literal" None 20 25 []; T ";" 25 26].
Example assert_comment_example :
  shape_of assertc_cst = "assert"
  /\ assert_spec assertc_src assertc_cst = SAssert "x > 0" (Some """neg""")
  /\ option_map (List.map n_stmt) (ents (entities_of assertc_src "A.java" None assertc_cst))
     = Some [Some (SAssert "x > 0" (Some """neg"""))].
Proof. vm_compute. repeat split; reflexivity. Qed.

Definition blockc_src : bytes := "{ a(); /*c*/ b(); }".
Definition blockc_cst : cst :=
  L "block" None 0 19
    [T "{" 0 1; L "expression_statement" None 2 6 []; L "block_comment" None 7 12 [];
     L "expression_statement" None 13 17 []; T "}" 18 19].
Example block_comment_example :
  shape_of blockc_cst = "block" /\ side_ok blockc_src blockc_cst = true
  /\ block_stmts blockc_src blockc_cst = ["a();"; "b();"]
  /\ option_map (List.map n_stmt) (ents (entities_of blockc_src "A.java" None blockc_cst))
     = Some [Some (SBlock ["{"; "a();"; "b();"; "}"])].
Proof. vm_compute. repeat split; reflexivity. Qed.

Definition callc_src : bytes := "run(1, /*c*/ x)".
Definition callc_cst : cst :=
  L "method_invocation" None 0 15
    [L "identifier" (Some "name") 0 3 [];
     L "argument_list" (Some "arguments") 3 15
       [T "(" 3 4; L "decimal_integer_literal" None 4 5 []; T "," 5 6;
        L "block_comment" None 7 12 []; L "identifier" None 13 14 []; T ")" 14 15]].
Example call_comment_example :
  shape_of callc_cst = "call"
  /\ decode callc_src None callc_cst = Some [("name", ["run"]); ("args", ["1"; "x"])]
  /\ option_map (List.map n_argv) (ents (entities_of callc_src "A.java" None callc_cst)) = Some [["1"; "x"]].
Proof. vm_compute. repeat split; reflexivity. Qed.

Definition classc_src : bytes := "class A implements I, /*c*/ J { }".
Definition classc_cst : cst :=
  L "class_declaration" None 0 33
    [T "class" 0 5; L "identifier" (Some "name") 6 7 [];
     L "super_interfaces" (Some "interfaces") 8 29
       [T "implements" 8 18;
        L "type_list" None 19 29
          [L "type_identifier" None 19 20 []; T "," 20 21; L "block_comment" None 22 27 [];
           L "type_identifier" None 28 29 []]];
     L "class_body" (Some "body") 30 33 [T "{" 30 31; T "}" 32 33]].
Example class_comment_example :
  shape_of classc_cst = "class"
  /\ class_ifaces_spec classc_src classc_cst = ["I"; "J"]
  /\ option_map (List.map n_iface) (ents (entities_of classc_src "A.java" None classc_cst)) = Some [["I"; "J"]].
Proof. vm_compute. repeat split; reflexivity. Qed.

Definition varc_src : bytes := "int x = /**/ y /*z*/;".
Definition varc_cst : cst :=
  L "local_variable_declaration" None 0 21
    [L "integral_type" (Some "type") 0 3 [];
     L "variable_declarator" (Some "declarator") 4 20
       [L "identifier" (Some "name") 4 5 []; T "=" 6 7; L "block_comment" None 8 12 [];
        L "identifier" (Some "value") 13 14 []; L "block_comment" (Some "value") 15 20 []];
     T ";" 20 21].
Example var_comment_example :
  shape_of varc_cst = "var"
  /\ decode varc_src None varc_cst
     = Some [("name", ["x"]); ("dtype", ["int"]); ("value", ["y"]); ("scope", ["local"]); ("vis", [""])]
  /\ option_map (List.map n_value) (ents (entities_of varc_src "A.java" None varc_cst)) = Some ["y"].
Proof. vm_compute. repeat split; reflexivity. Qed.
End Examples.
