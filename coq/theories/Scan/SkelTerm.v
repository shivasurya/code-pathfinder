(* SkelTerm.v -- termination of [pool_program_modelled] under the generic small-step semantics
   (Scan/SkelSem.v), for every list of files, every failure assignment and every scheduler: an executable
   measure on configurations that EVERY step from a reachable configuration strictly decreases.

     sk_measure_w w files s = 10 * Pool.measure (abs files w s) + sum over the goroutines of [gfuel]

   [gfuel] bounds the number of silent micro-steps (steps that [abs] does not see) a goroutine can still
   take before its next visible step: a weighted length of its continuation, where a counted loop weighs
   (iterations * body) -- the bound of SLoopN is the parameter w, the bound of SForEach is length files --
   and the continuation of the status updater's endless loop is weighed by position.  A silent step
   consumes fuel and leaves [abs] unchanged; a step that [abs] maps to a Pool.step decreases Pool.measure
   (PoolFacts.step_measure) and adds at most 9 < 10 fuel (a worker that has received a file gets the nine
   statements of the loop body).  Both are facts about the successor functions of Scan/SkelSim.v
   ([dstep_fuel]). *)
From CPF Require Import Base.ListFacts Base.Bytes Base.Skel Scan.SkelSem Scan.Pool Scan.PoolFacts Scan.PoolSkel Scan.SkelAbs
  Scan.SkelSim.
From Coq Require Import List Arith Lia Wellfounded.
Import ListNotations.
Open Scope bs_scope.

Section Fuel.
  Variable w : nat.      (* bound of the counted loop (numWorkers) *)
  Variable n : nat.      (* length of the collection of the for-each loop *)

  (* weight of a statement that has not started *)
  Fixpoint stw (st : pstmt) : nat :=
    match st with
    | SLoopN _ b => 2 + w * S (list_sum (map stw b))
    | SForEach _ b => 2 + n * S (list_sum (map stw b))
    | SRange _ _ => 2
    | SGo _ => 6                       (* pays for the first silent steps of the new goroutine *)
    | _ => 1
    end.
  Definition bw (b : list pstmt) : nat := list_sum (map stw b).

  (* The status updater's loop has no bound, so its continuation is weighed by where it stands in the cycle
       KS (SForever b) 4  ->  KForever b 3  ->  KS (SSelect _) 2  ->  KS SIfClosedReturn, ok, 1 + 3  ->  KForever b 3 ...
     Every edge loses 1 but the one from 2 to 4: there the select receives an item, which Pool.v sees
     (step_g_status, step_g_progress).  The select that finds a channel closed and drained is silent: from 2
     to KS SIfClosedReturn, not ok, 1; the return that follows is visible. *)
  Fixpoint fuel (ok : bool) (k : list kitem) : nat :=
    match k with
    | [] => 0
    | KS SIfClosedReturn :: r => if ok then 1 + fuel ok r else 1
    | KS (SSelect _) :: _ => 2
    | KS (SForever _) :: _ => 4
    | KForever _ :: _ => 3
    | KS st :: r => stw st + fuel ok r
    | KRange _ _ :: r => 1 + fuel ok r
    | KEach rest b :: r => 1 + length rest * S (bw b) + fuel ok r
    | KTimes j b :: r => 1 + j * S (bw b) + fuel ok r
    end.

  Definition gfuel (g : gor) : nat := if g_live g then 1 + fuel (g_ok g) (g_k g) else 0.
End Fuel.

Definition sk_fuel (w : nat) (files : list nat) (s : sk) : nat :=
  list_sum (map (gfuel w (length files)) (s_gors s)).

Definition sk_measure_w (w : nat) (files : list nat) (s : sk) : nat :=
  10 * measure (abs files w s) + sk_fuel w files s.

(* the extracted program: numWorkers = 5 *)
Definition sk_measure (files : list nat) (s : sk) : nat := sk_measure_w 5 files s.

Local Arguments Nat.ltb : simpl never.
Local Arguments Nat.eqb : simpl never.
Local Arguments Nat.mul : simpl never.
Local Arguments Nat.add : simpl never.

Section TermW.
  Variable v : bytes.
  Variable w : nat.
  Hypothesis Hv : dec_val 0 v = Some w.
  Variable files : list nat.
  Variable fails : bytes -> nat -> bool.

  Notation n := (length files).
  Notation PROG := (pool_prog_lit v).
  Notation conc := (SkelSim.conc w files).
  Notation absd := (SkelSim.absd w files).
  Notation dstep := (SkelSim.dstep w files fails).
  Notation gfuel := (gfuel w n).
  Notation sreach_w := (SkelSim.sreach_w v files fails).
  Notation sstep_w := (SkelSim.sstep_w v files fails).
  Notation pre := (SkelSim.pre v files fails).
  Notation smeasure := (sk_measure_w w files).

  Definition wsum (ws : list wst) : nat := list_sum (map (fun x => gfuel (wgor x)) ws).
  Definition sfuel (g1 : option sst) : nat := match g1 with Some x => gfuel (sgor x) | None => 0 end.
  Definition cfuel (g2 : option cpc) : nat := match g2 with Some q => gfuel (cgor q) | None => 0 end.
  Definition phid (d : desc) : nat :=
    let '(Ds p c ws g1 g2 _) := d in gfuel (mgor p c) + wsum ws + sfuel g1 + cfuel g2.

  Lemma sk_fuel_conc : forall d, sk_fuel w files (conc d) = phid d.
  Proof.
    intros [p c ws g1 g2 D]. unfold sk_fuel, SkelSim.conc, phid, tailg, wsum. cbn [s_gors map list_sum].
    change (list_sum (?a :: ?l)) with (a + list_sum l).
    rewrite !map_app, !list_sum_app, map_map.
    destruct g1, g2; cbn [option_map olist map sfuel cfuel]; change (list_sum [?a]) with (a + 0);
      change (list_sum []) with 0; lia.
  Qed.

  Lemma wsum_mid : forall (l1 : list wst) x l2, wsum (l1 ++ x :: l2) = wsum l1 + gfuel (wgor x) + wsum l2.
  Proof. intros. exact (list_sum_mid (fun x => gfuel (wgor x)) l1 x l2). Qed.

  Ltac dec := split; [|intros _]; lia.

  (* a step of a description adds at most nine statements' worth of fuel (a worker that has received a
     file gets the body of its loop), and consumes fuel unless Pool.v sees it *)
  Lemma dstep_fuel : forall d d', is_some (d_g1 d) = has_g1 (d_pc d) -> dstep d d' ->
    phid d' <= phid d + 9 /\ (absd d' = absd d -> phid d' < phid d).
  Proof.
    intros d d' W H.
    destruct H as [[p c ws g1 g2 [q0 q1 q2 q3 mg skp]] d' H | p c l1 [q cu] l2 g1 g2 D x' D' H
                  | p c ws [q cu] g2 D x' D' H | p c ws g1 q D q' H]; unfold phid.
    - rename W into W2. cbn [d_pc d_g1] in W2. destruct p; cbn in H.
      all: branches H; injection H as <-; rewrite ?wsum_mid; cbn.
      all: try dec.
      (* the steps that add fuel are visible: the status updater is spawned, a result is received *)
      + destruct g1; [discriminate W2|]. cbn. unfold stof. split; [lia | discriminate].
      + split; [lia|]. intros E. apply (f_equal (fun a => length (rq a))) in E. cbn in E. lia.
    - rewrite !wsum_mid, !absd_worker. destruct D as [q0 q1 q2 q3 mg skp]. destruct q; cbn in H.
      2:{ (* W_range *) destruct q0 as [|f r]; [destruct (past_close_m p); [|discriminate H]|]; injection H as <- <-; cbn; [dec|].
          split; [lia|]. intros E. apply (f_equal (fun a => length (fq a))) in E. cbn in E. lia. }
      (* every other step consumes fuel, whichever branch it takes *)
      all: branches H; injection H as <- <-; cbn; dec.
    - destruct D as [q0 q1 q2 q3 mg skp]. destruct q; cbn in H.
      4:{ (* S_select *) apply in_app_or in H. destruct H as [H|H].
          - destruct q2 as [|y r]; [destruct (fl2 g2); [|destruct H]|]; destruct H as [[= <- <-]|[]]; cbn; [dec|].
            split; [lia|]. intros E. apply (f_equal sq) in E. cbn in E. lia.
          - destruct q3 as [|y r]; [destruct (fl3 g2); [|destruct H]|]; destruct H as [[= <- <-]|[]]; cbn; [dec|].
            split; [lia|]. intros E. apply (f_equal pq) in E. cbn in E. lia. }
      all: try (destruct H as [[= <- <-]|[]]; cbn; dec).
      destruct H.
    - destruct q; cbn in H; try (destruct (SkelSim.wgof w ws =? 0)); try discriminate H;
        injection H as <-; cbn; dec.
  Qed.

  Lemma pre_fuel : forall j, j < NPRE -> sk_fuel w files (pre (S j)) < sk_fuel w files (pre j).
  Proof.
    apply Forall_seq_lt. cbn [seq].
    repeat (apply Forall_cons; [cbv -[Nat.mul Nat.add Nat.lt dec_val]; lia|]). apply Forall_nil.
  Qed.

  Theorem skel_variant_w : forall s s', sreach_w s -> sstep_w s s' -> smeasure s' < smeasure s.
  Proof.
    intros s s' Hr Hs. unfold sk_measure_w.
    destruct (sreach_Inv_w v w Hv files fails s Hr) as [j Hj | d W].
    - destruct (skel_simulates_pool_w v w Hv files fails _ _ Hr Hs) as [E|E]; [rewrite E | apply step_measure in E].
      all: destruct (pre_facts v w files fails j Hj) as [E' _]; unfold SkelSim.sstep_w in Hs; rewrite E' in Hs.
      all: destruct Hs as [<-|[]]; pose proof (pre_fuel j Hj); lia.
    - apply (sk_steps_conc v w files fails d s' W) in Hs. destruct Hs as [d' [Hd <-]].
      rewrite !abs_conc, !sk_fuel_conc. destruct (dstep_fuel d d' (wf_g1 _ _ _ W) Hd) as [F1 F2].
      destruct (dstep_sim w files fails d d' W Hd) as [_ [E|E]]; [rewrite E; specialize (F2 E); lia|].
      apply step_measure in E. lia.
  Qed.

  Lemma skel_measure_init_w : smeasure (sk_init PROG) = 142 * n + 17 * w + 172.
  Proof.
    unfold sk_measure_w. rewrite (skel_abs_init_w v w files fails), pool_measure_init.
    assert (E : sk_fuel w files (sk_init PROG) = 2 * n + 7 * w + 32).
    { cbv -[Nat.mul Nat.add dec_val length].
      generalize (length files). intros m. lia. }
    rewrite E. unfold file. (* pool_measure_init has [length files] over [list file] *) lia.
  Qed.

  Inductive srun_w : nat -> sk -> sk -> Prop :=
  | srun_w_O : forall s, srun_w 0 s s
  | srun_w_S : forall k s1 s2 s3, srun_w k s1 s2 -> sstep_w s2 s3 -> srun_w (S k) s1 s3.

  Lemma srun_measure_w : forall k s s', srun_w k s s' -> sreach_w s ->
    sreach_w s' /\ k + smeasure s' <= smeasure s.
  Proof.
    intros k s s' H Hr. induction H as [s | k s1 s2 s3 H IH Hs]; [split; [exact Hr | lia]|].
    destruct (IH Hr) as [Hr2 Hm]. pose proof (skel_variant_w s2 s3 Hr2 Hs).
    split; [exact (SkelSim.sreach_step_w v files fails s2 s3 Hr2 Hs) | lia].
  Qed.

  Theorem skel_run_length_bound_w : forall k s, srun_w k (sk_init PROG) s -> k <= 142 * n + 17 * w + 172.
  Proof.
    intros k s H. destruct (srun_measure_w k _ s H (SkelSim.sreach_init_w v files fails)) as [_ Hm].
    rewrite skel_measure_init_w in Hm. lia.
  Qed.

  Theorem skel_step_wf_w : forall s, sreach_w s -> Acc (fun s2 s1 => sreach_w s1 /\ sstep_w s1 s2) s.
  Proof.
    intros s _. apply (Acc_incl _ _ (ltof _ smeasure)); [|apply well_founded_ltof].
    intros s2 s1 [Hr Hs]. exact (skel_variant_w s1 s2 Hr Hs).
  Qed.

End TermW.

Section Term.
  Variable files : list nat.
  Variable fails : bytes -> nat -> bool.

  Notation sreach := (SkelSim.sreach files fails).
  Notation sstep := (SkelSim.sstep files fails).

  Theorem skel_variant : forall s s', sreach s -> sstep s s' -> sk_measure files s' < sk_measure files s.
  Proof. intros s s'. rewrite sreach_5. apply (skel_variant_w "5" 5 eq_refl). Qed.

  Lemma skel_measure_init : sk_measure files (sk_init pool_program_modelled) = 142 * length files + 257.
  Proof.
    unfold sk_measure. change pool_program_modelled with (pool_prog_lit "5").
    rewrite (skel_measure_init_w "5" 5 files fails). lia.
  Qed.

  Inductive srun : nat -> sk -> sk -> Prop :=
  | srun_O : forall s, srun 0 s s
  | srun_S : forall k s1 s2 s3, srun k s1 s2 -> sstep s2 s3 -> srun (S k) s1 s3.

  Theorem skel_run_length_bound : forall k s,
    srun k (sk_init pool_program_modelled) s -> k <= 142 * length files + 257.
  Proof.
    intros k s H. enough (srun_w "5" files fails k (sk_init pool_program_modelled) s) as Hw.
    { pose proof (skel_run_length_bound_w "5" 5 eq_refl files fails k s Hw). lia. }
    induction H as [s | k s1 s2 s3 H IH Hs]; [constructor | econstructor; [exact IH | exact Hs]].
  Qed.

  Theorem skel_no_infinite_run : forall tr : nat -> sk,
    tr 0 = sk_init pool_program_modelled -> (forall i, sstep (tr i) (tr (S i))) -> False.
  Proof.
    intros tr H0 Hstep.
    assert (Hrun : forall k, srun k (tr 0) (tr k)).
    { induction k as [|k IH]; [constructor | econstructor; [exact IH | apply Hstep]]. }
    specialize (Hrun (S (142 * length files + 257))). rewrite H0 in Hrun.
    apply skel_run_length_bound in Hrun. lia.
  Qed.

  Theorem skel_step_wf : forall s, sreach s -> Acc (fun s2 s1 => sreach s1 /\ sstep s1 s2) s.
  Proof.
    intros s _. apply (Acc_incl _ _ (ltof _ (sk_measure files))); [|apply well_founded_ltof].
    intros s2 s1 [Hr Hs]. exact (skel_variant s1 s2 Hr Hs).
  Qed.
End Term.

Print Assumptions skel_variant.
Print Assumptions skel_measure_init.
Print Assumptions skel_run_length_bound.
Print Assumptions skel_no_infinite_run.
Print Assumptions skel_step_wf.
Print Assumptions skel_variant_w.
Print Assumptions skel_measure_init_w.
Print Assumptions skel_run_length_bound_w.
