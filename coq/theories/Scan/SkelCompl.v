(* SkelCompl.v -- the converse of Scan/SkelSim.v: every transition of Pool.v out of the abstraction of a
   reachable configuration is matched by the program, PROVIDED the status updater is not "committed".

   The unrestricted statement is false: [abs] fuses the status updater's select on a closed and drained
   channel with the following [return]; between the two the updater is committed to return, but [abs]
   still shows GRunning, so Pool.step_g_status / step_g_progress may be enabled in the abstraction while
   nobody in the program will ever drain the other channel again ([skel_completeness_counterexample]).

   What holds, for every list of files and failure assignment:
   - [skel_complete]: from a reachable configuration in which the updater is not at that point
     ([uncommitted]), every Pool.step out of its abstraction is matched by finitely many steps of the
     program (silent steps of the goroutine concerned, then the visible one), ending in an uncommitted
     configuration;
   - [skel_covers_pool], [skel_covers_transitions]: every Pool-reachable state is the abstraction of a
     reachable configuration, and every transition between Pool-reachable states is the image of a run of
     the program.  With SkelSim.skel_simulates_pool: the image of the program's reachable transition graph
     under [abs] is exactly Pool's reachable transition graph.

   The matching itself is SkelSim.complete_d, on descriptions. *)
From CPF Require Import Base.Bytes Base.Skel Scan.SkelSem Scan.Pool Scan.PoolSkel Scan.SkelAbs Scan.SkelSim.
From Coq Require Import List Arith Lia.
Import ListNotations.
Open Scope bs_scope.

(* the status updater has executed its select with ok = false and not yet returned *)
Definition committed_g (g : gor) : bool :=
  g_live g && negb (g_ok g) && match g_k g with KS SIfClosedReturn :: _ => true | _ => false end.
Definition uncommitted (s : sk) : bool :=
  match find_gor "g1" (s_gors s) with Some g => negb (committed_g g) | None => true end.

Section ComplW.
  Variable v : bytes.
  Variable w : nat.
  Hypothesis Hv : dec_val 0 v = Some w.
  Variable files : list nat.
  Variable fails : bytes -> nat -> bool.

  Notation n := (length files).
  Notation conc := (SkelSim.conc w files).
  Notation absd := (SkelSim.absd w files).
  Notation wfd := (SkelSim.wfd w fails).
  Notation dstar := (rtc (SkelSim.dstep w files fails)).
  Notation readable := (SkelSim.readable fails).
  Notation pstep := (Pool.step n w readable).
  Notation sstep := (SkelSim.sstep_w v files fails).
  Notation sreach := (SkelSim.sreach_w v files fails).

  Notation sstar := (rtc sstep).

  Lemma sstar_reach : forall s s', sstar s s' -> sreach s -> sreach s'.
  Proof.
    intros s s' H. induction H as [s | a b c Hs H IH]; intros Hr; [exact Hr|].
    apply IH. eapply SkelSim.sreach_step_w; eassumption.
  Qed.

  Lemma dstar_conc : forall d d', dstar d d' -> wfd d -> sstar (conc d) (conc d').
  Proof.
    intros d d' H. induction H as [d | a b c Hs H IH]; intros W; [apply rtc_refl|].
    eapply rtc_cons; [|exact (IH (proj1 (dstep_sim w files fails a b W Hs)))].
    apply (sk_steps_conc v w files fails a _ W). exists b. split; [exact Hs | reflexivity].
  Qed.

  Lemma uncommitted_conc : forall d, uncommitted (conc d) = negb (committed (d_g1 d)).
  Proof.
    intros [p c ws g1 g2 D]. unfold uncommitted, SkelSim.conc. cbn [s_gors d_g1].
    rewrite find_gor_conc by reflexivity.
    destruct g1 as [[[] cu]|], g2; reflexivity.
  Qed.

  Notation pre := (SkelSim.pre v files fails).

  Lemma pre_to_end : forall k j, j + k = NPRE -> sstar (pre j) (pre NPRE).
  Proof.
    induction k as [|k IH]; intros j Hj.
    - replace j with NPRE by lia. apply rtc_refl.
    - eapply rtc_cons; [|apply (IH (S j)); lia].
      unfold SkelSim.sstep_w. rewrite (proj1 (pre_facts v w files fails j ltac:(lia))). left. reflexivity.
  Qed.

  Theorem skel_complete_w : forall s t, sreach s -> uncommitted s = true ->
    pstep (abs files w s) t ->
    exists s', sstar s s' /\ uncommitted s' = true /\ abs files w s' = t.
  Proof.
    intros s t Hr Hu Hstep.
    assert (Hd : forall d, wfd d -> uncommitted (conc d) = true -> pstep (absd d) t ->
              exists s', sstar (conc d) s' /\ uncommitted s' = true /\ abs files w s' = t).
    { intros d W U Hst. rewrite uncommitted_conc in U. apply negb_true_iff in U.
      destruct (complete_d w files fails d t W U Hst) as [d' [S' [U' A']]]. exists (conc d').
      rewrite uncommitted_conc, U', abs_conc. split; [exact (dstar_conc d d' S' W) | auto]. }
    destruct (sreach_Inv_w v w Hv files fails s Hr) as [j Hj | d W].
    - rewrite (proj1 (proj2 (pre_facts v w files fails j Hj))) in Hstep.
      destruct (Hd _ (wf_0 w fails) eq_refl Hstep) as [s' [H1 H2]]. exists s'. split; [|exact H2].
      eapply rtc_trans; [apply (pre_to_end (NPRE - j) j); lia|]. rewrite (pre_end v w Hv files fails). exact H1.
    - rewrite abs_conc in Hstep. exact (Hd d W Hu Hstep).
  Qed.

  Lemma cover_star : forall a b, Pool.star n w readable a b ->
    forall s, sreach s -> uncommitted s = true -> abs files w s = a ->
    exists s', sreach s' /\ uncommitted s' = true /\ abs files w s' = b.
  Proof.
    intros a b H. induction H as [a | a1 a2 a3 Hst H IH]; intros s Hr Hu Ha.
    - exists s. auto.
    - subst a1. destruct (skel_complete_w s a2 Hr Hu Hst) as [s2 [H1 [H2 H3]]].
      exact (IH s2 (sstar_reach _ _ H1 Hr) H2 H3).
  Qed.

  Theorem skel_covers_pool_w : forall a, Pool.reachable files w readable a ->
    exists s, sreach s /\ uncommitted s = true /\ abs files w s = a.
  Proof.
    intros a Ha. exact (cover_star _ _ Ha _ (SkelSim.sreach_init_w v files fails) eq_refl
                          (skel_abs_init_w v w files fails)).
  Qed.

  Theorem skel_covers_transitions_w : forall a t, Pool.reachable files w readable a -> pstep a t ->
    exists s s', sreach s /\ sstar s s' /\ abs files w s = a /\ abs files w s' = t.
  Proof.
    intros a t Ha Hst. destruct (skel_covers_pool_w a Ha) as [s [H1 [H2 H3]]].
    rewrite <- H3 in Hst. destruct (skel_complete_w s t H1 H2 Hst) as [s' [H4 [H5 H6]]].
    exists s, s'. auto.
  Qed.

End ComplW.

Print Assumptions skel_complete_w.
Print Assumptions skel_covers_pool_w.
Print Assumptions skel_covers_transitions_w.

Section Compl.
  Variable files : list nat.
  Variable fails : bytes -> nat -> bool.

  Notation sreach := (SkelSim.sreach files fails).
  Notation sstep := (SkelSim.sstep files fails).
  Notation readable := (SkelSim.readable fails).

  Inductive sruns : sk -> sk -> Prop :=
  | sruns_refl : forall s, sruns s s
  | sruns_cons : forall s1 s2 s3, sstep s1 s2 -> sruns s2 s3 -> sruns s1 s3.

  Lemma sstar_5 : forall s s', rtc (SkelSim.sstep_w "5" files fails) s s' -> sruns s s'.
  Proof.
    intros s s' H. induction H as [s | a b c Hs H IH]; [apply sruns_refl|].
    eapply sruns_cons; [exact Hs | exact IH].
  Qed.

  Lemma sruns_reach : forall s s', sruns s s' -> sreach s -> sreach s'.
  Proof.
    intros s s' H. induction H as [s | a b c Hs H IH]; intros Hr; [exact Hr|].
    apply IH. eapply sreach_step; eassumption.
  Qed.

  Theorem skel_complete : forall s t, sreach s -> uncommitted s = true ->
    Pool.step (length files) 5 readable (abs files 5 s) t ->
    exists s', sruns s s' /\ uncommitted s' = true /\ abs files 5 s' = t.
  Proof.
    intros s t. rewrite sreach_5. intros Hr Hu Hst.
    destruct (skel_complete_w "5" 5 eq_refl files fails s t Hr Hu Hst) as (s' & H1 & H2).
    exists s'. split; [apply sstar_5, H1 | exact H2].
  Qed.

  Theorem skel_covers_pool : forall a, Pool.reachable files 5 readable a ->
    exists s, sreach s /\ uncommitted s = true /\ abs files 5 s = a.
  Proof.
    intros a Ha. destruct (skel_covers_pool_w "5" 5 eq_refl files fails a Ha) as (s & H1 & H2).
    exists s. split; [apply sreach_5, H1 | exact H2].
  Qed.

  Theorem skel_covers_transitions : forall a t, Pool.reachable files 5 readable a ->
    Pool.step (length files) 5 readable a t ->
    exists s s', sreach s /\ sruns s s' /\ abs files 5 s = a /\ abs files 5 s' = t.
  Proof.
    intros a t Ha Hst. destruct (skel_covers_pool a Ha) as (s & H1 & H2 & H3).
    rewrite <- H3 in Hst. destruct (skel_complete s t H1 H2 Hst) as (s' & H4 & _ & H6).
    exists s, s'. auto.
  Qed.

  Corollary skel_image_exact : forall a,
    Pool.reachable files 5 readable a <-> exists s, sreach s /\ abs files 5 s = a.
  Proof.
    intros a. split.
    - intros Ha. destruct (skel_covers_pool a Ha) as [s [H1 [_ H3]]]. exists s. auto.
    - intros [s [H1 H2]]. subst a. apply skel_reachable. exact H1.
  Qed.

  (* [P] holds of s and of everything a run of at most k steps from s reaches, and no run is longer *)
  Fixpoint holds_upto (P : sk -> bool) (k : nat) (s : sk) : bool :=
    P s && match k with
           | 0 => isnil (sk_steps pool_program_modelled files fails s)
           | S k' => forallb (holds_upto P k') (sk_steps pool_program_modelled files fails s)
           end.

  Lemma holds_upto_sound : forall P k s s', holds_upto P k s = true -> sruns s s' -> P s' = true.
  Proof.
    intros P k. induction k as [|k IH]; intros s s' H R; cbn [holds_upto] in H;
      apply andb_true_iff in H; destruct H as [Hp H]; destruct R as [s | s1 s2 s3 Hs R]; try exact Hp.
    - unfold SkelSim.sstep in Hs. destruct (sk_steps pool_program_modelled files fails s1); [destruct Hs | discriminate H].
    - rewrite forallb_forall in H. exact (IH s2 s3 (H s2 Hs) R).
  Qed.
End Compl.

Definition cx_files : list nat := [7].
Definition cx_fails : bytes -> nat -> bool := fun _ _ => false.

(* choice c picks successor number min c (last) *)
Fixpoint run_sk (sched : list nat) (s : sk) : sk :=
  match sched with
  | [] => s
  | c :: r =>
      let l := sk_steps pool_program_modelled cx_files cx_fails s in
      match nth_error l (Nat.min c (length l - 1)) with
      | Some s' => run_sk r s'
      | None => s
      end
  end.

Lemma run_sk_reach : forall sched s, sreach cx_files cx_fails s -> sreach cx_files cx_fails (run_sk sched s).
Proof.
  induction sched as [|c r IH]; intros s Hr; [exact Hr|].
  cbn [run_sk].
  destruct (nth_error (sk_steps pool_program_modelled cx_files cx_fails s)
              (Nat.min c (length (sk_steps pool_program_modelled cx_files cx_fails s) - 1))) as [s'|] eqn:E;
    [|exact Hr].
  apply IH. eapply sreach_step; [exact Hr|]. unfold SkelSim.sstep. eapply nth_error_In. exact E.
Qed.

(* one readable file; the first worker handles it, everybody else runs to completion, the status
   updater receives the progress item, the closer closes the three channels, and the updater's next
   select takes the case of the closed and drained progressChan (ok = false) while the closed
   statusChan still holds the three status items *)
Definition cx_sched : list nat := repeat 0 65 ++ [1; 0; 0; 99; 99; 0; 99; 99; 99; 1].
Definition cx_s : sk := run_sk cx_sched (sk_init pool_program_modelled).
Definition cx_t : state :=
  St Join [] true [WExited; WExited; WExited; WExited; WExited] 2 0 [] GRunning CFired [7] [].

Lemma cx_abs : abs cx_files 5 cx_s =
  St Join [] true [WExited; WExited; WExited; WExited; WExited] 3 0 [] GRunning CFired [7] [].
Proof. vm_compute. reflexivity. Qed.

Lemma cx_committed : uncommitted cx_s = false.
Proof. vm_compute. reflexivity. Qed.

Lemma cx_stuck : forall s', sruns cx_files cx_fails cx_s s' -> sq (abs cx_files 5 s') = 3.
Proof.
  intros s' H. apply Nat.eqb_eq.
  apply (holds_upto_sound cx_files cx_fails (fun x => sq (abs cx_files 5 x) =? 3) 10 cx_s s'); [|exact H].
  vm_compute. reflexivity.
Qed.

Theorem skel_completeness_counterexample :
  exists files fails s t,
    sreach files fails s /\
    Pool.step (length files) 5 (readable fails) (abs files 5 s) t /\
    forall s', sruns files fails s s' -> abs files 5 s' <> t.
Proof.
  exists cx_files, cx_fails, cx_s, cx_t. split; [apply run_sk_reach, sreach_init | split].
  { rewrite cx_abs. apply step_g_status. }
  intros s' H E. pose proof (cx_stuck s' H) as Hq. rewrite E in Hq. discriminate Hq.
Qed.

Print Assumptions skel_complete.
Print Assumptions skel_covers_pool.
Print Assumptions skel_covers_transitions.
Print Assumptions skel_image_exact.
Print Assumptions skel_completeness_counterexample.
