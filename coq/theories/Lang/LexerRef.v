(* A direct transcription of ANTLR's lexer semantics, used only to cross-check Lang/Lexer.v:
   every lexer rule reports its own longest match at the current position; the longest of these
   wins, ties going to the rule listed first.  [lex_step] of Lexer.v instead dispatches on the
   first byte.  The two are compared on a set of tricky inputs by computation (this is a test,
   not a proof; the proofs about [lex] are in LexerFacts.v and do not depend on this file). *)
From CPF Require Import Base.BytesFacts Lang.Lexer.
From Coq Require Import Arith.
Open Scope bs_scope.

Inductive rule :=
| RLit (t : token)      (* a rule with a fixed text: implicit literals and keywords *)
| RString | RNumber | RIdent | RWs.

(* the rules in ANTLR's order *)
Definition rules : list rule :=
  map RLit [TLParen; TRParen; TLBrace; TRBrace; TComma; TOrOr; TAndAnd; TEqEq; TNeq; TLt; TGt;
            TLe; TGe; TIn; TPlus; TMinus; TStar; TSlash; TBang; TDot; TLBrack; TRBrack;
            TLike; TInWord]
  ++ [RString; RNumber]
  ++ map RLit [TPredicate; TFrom; TWhere; TAs; TSelect]
  ++ [RIdent; RWs].

(* longest match of one rule: its length and the token it produces (None = skipped) *)
Definition rule_match (r : rule) (s : bytes) : option (nat * option token) :=
  match r with
  | RLit t => if has_prefix (token_text t) s then Some (length (token_text t), Some t) else None
  | RString =>
      match s with
      | c :: s' =>
          if is_quote c then
            match scan_str s' with
            | Some (b, _) => Some (S (length b), Some (TString (c :: b)))
            | None => None
            end
          else None
      | [] => None
      end
  | RNumber =>
      if next_is is_digit s then
        let (n, _) := scan_num s in Some (length n, Some (TNumber n))
      else None
  | RIdent =>
      if next_is is_id_start s then
        let (w, _) := span is_id_char s in Some (length w, Some (TIdent w))
      else None
  | RWs =>
      match span is_ws s with
      | ([], _) => None
      | (w, _) => Some (length w, None)
      end
  end.

Fixpoint best (rs : list rule) (s : bytes) (cur : option (nat * option token))
  : option (nat * option token) :=
  match rs with
  | [] => cur
  | r :: rs' =>
      let cur' :=
        match rule_match r s, cur with
        | Some (n, o), Some (m, _) => if Nat.ltb m n then Some (n, o) else cur
        | Some c, None => Some c
        | None, _ => cur
        end in
      best rs' s cur'
  end.

Definition lex_step_ref (s : bytes) : option (option token * bytes) :=
  match best rules s None with
  | Some (n, o) => Some (o, skipn n s)
  | None => None
  end.

Fixpoint lex_ref_f (fuel : nat) (s : bytes) : option (list token) :=
  match s with
  | [] => Some []
  | _ :: _ =>
      match fuel with
      | O => None
      | S f =>
          match lex_step_ref s with
          | None => None
          | Some (None, r) => lex_ref_f f r
          | Some (Some t, r) => option_map (cons t) (lex_ref_f f r)
          end
      end
  end.
Definition lex_ref (s : bytes) : option (list token) := lex_ref_f (length s) s.

(* comparison through the printed text plus a constructor tag.  The tag is what tells a keyword
   such as [TFrom] from [TIdent "FROM"], which [RIdent] yields on the same bytes; [TIn] and
   [TInWord] differ in their texts already, so their tags 4 and 5 add nothing. *)
Definition tok_tag (t : token) : nat :=
  match t with
  | TString _ => 1 | TNumber _ => 2 | TIdent _ => 3 | TIn => 4 | TInWord => 5 | _ => 0
  end.
Definition tok_eqb (a b : token) : bool :=
  Nat.eqb (tok_tag a) (tok_tag b) && bytes_eqb (token_text a) (token_text b).
Fixpoint toks_eqb (a b : list token) : bool :=
  match a, b with
  | [], [] => true
  | x :: a', y :: b' => tok_eqb x y && toks_eqb a' b'
  | _, _ => false
  end.
Definition agree (s : bytes) : bool :=
  match lex s, lex_ref s with
  | Some a, Some b => toks_eqb a b
  | None, None => true
  | _, _ => false
  end.

Definition samples : list bytes :=
  [ ""; " "; "x"; "x in y"; "x  in y"; " in "; " in in "; "  in  "; "x in[1]"; "x inx y"; " inx";
    [x09; x69; x6e; x20]; [x20; x69; x6e; x09]; [x0a; x0d; x09; x20; x78];
    "in"; "inn"; "LIKE"; "LIKEx"; "LIK"; "like"; "predicate"; "predicates"; "predicat";
    "FROM"; "FROMAGE"; "from"; "WHERE"; "AS"; "ASx"; "A"; "SELECT"; "SELECT1"; "_x1"; "_"; "x_9 y";
    "1"; "12.5"; "1."; "1.x"; "1.5.6"; ".5"; "1..2"; "007"; "1e5"; "9a";
    """"""; """a"""; """a\""b"""; """a\\"""; """a\"; """abc"; """a""b"""; """%x%"""; """a
b"""; """\"; """";
    "<"; "<="; "<=="; "<<="; ">"; ">="; ">=="; "!"; "!="; "!=="; "!!"; "=="; "="; "==="; "|"; "||";
    "|||"; "&"; "&&"; "&&&"; "+-*/"; "--1"; "a.b"; "a . b"; "a..b"; "[1,2]"; "{}"; "()"; "(,)";
    "#"; "a#b"; "a;b"; "'x'"; "a%b"; [xc3; xa9]; "x"++[xe2; x80; x8a]++"y";
    "md.getName()==""x""&&!(a<b)";
    "FROM method_declaration AS md WHERE md.getName() == ""onCreate"" SELECT md";
    "predicate p(int n){n>=100}FROM a AS b,c AS d WHERE p(1)||!b.x in [1,""s""] SELECT b.x,""t""" ].

Example lexers_agree : forallb agree samples = true.
Proof. vm_compute; reflexivity. Qed.

Example lexers_agree_normalised : forallb (fun s => agree (normalize_ws s)) samples = true.
Proof. vm_compute; reflexivity. Qed.

(* all suffixes of a realistic query, so that every token boundary and every mid-token
   position is a starting position *)
Fixpoint suffixes (s : bytes) : list bytes :=
  match s with
  | [] => [[]]
  | _ :: r => s :: suffixes r
  end.

Lemma Forall_suffixes_skipn (P : bytes -> Prop) n : forall s,
  Forall P (suffixes s) -> Forall P (suffixes (skipn n s)).
Proof. induction n as [|n IH]; intros [|c s] H; try exact H. exact (IH s (Forall_inv_tail H)). Qed.

Lemma lex_ref_f_lex_f : forall f s acc,
  Forall (fun s' => lex_step_ref s' = lex_step s') (suffixes s) ->
  lex_f f s acc = option_map (rev_append acc) (lex_ref_f f s).
Proof.
  induction f as [|f IH]; intros [|c s] acc H; try reflexivity. cbn [lex_f lex_ref_f].
  rewrite <- (Forall_inv H). unfold lex_step_ref.
  destruct (best rules (c :: s) None) as [[n [t|]]|]; [| |reflexivity];
    rewrite (IH _ _ (Forall_suffixes_skipn _ n _ H)); [destruct (lex_ref_f f _)|]; reflexivity.
Qed.

Lemma toks_eqb_refl a : toks_eqb a a = true.
Proof.
  induction a as [|t a IH]; [reflexivity|]. cbn [toks_eqb]. unfold tok_eqb.
  rewrite Nat.eqb_refl, BytesFacts.bytes_eqb_refl. exact IH.
Qed.

(* On all suffixes of a text the two lexers agree as soon as their step functions do at each
   of these positions: each position is then looked at once, not once for every suffix before it. *)
Lemma agree_of_steps s :
  map lex_step_ref (suffixes s) = map lex_step (suffixes s) -> forallb agree (suffixes s) = true.
Proof.
  intro H. rewrite map_ext_in_iff, <- Forall_forall in H.
  induction s as [|c s IH]; cbn [suffixes forallb]; [|rewrite (IH (Forall_inv_tail H))].
  all: unfold agree, lex, lex_ref; rewrite (lex_ref_f_lex_f _ _ [] H).
  all: destruct (lex_ref_f _ _); cbn [option_map rev_append]; [rewrite toks_eqb_refl|]; reflexivity.
Qed.

Example lexers_agree_suffixes :
  forallb agree (suffixes "predicate p(int n){n>=100} FROM a AS b, c AS d
WHERE p(1) || !b.x in [1.5,""s\""t""] && b.f(-2*3).g != c.LIKE / 4 SELECT b.x, ""t""") = true.
Proof. apply agree_of_steps. vm_compute. reflexivity. Qed.
