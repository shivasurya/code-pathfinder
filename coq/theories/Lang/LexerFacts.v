(* Proofs about Lang/Lexer.v: fuel sufficiency; the round trip
   lex_query (render toks lay) = Some toks  for well-formed tokens and separable layouts;
   and, for the proofs about rule files, which changes of a separable layout leave the tokens
   as they are. *)
From CPF Require Import Base.ListFacts Base.BytesFacts Lang.Lexer.
From Coq Require Import Lia.
Open Scope bs_scope.

Lemma is_quote_eq c : is_quote c = true -> c = x22.
Proof. destruct c; intro H; try discriminate H; reflexivity. Qed.
Lemma is_space_eq c : is_space c = true -> c = x20.
Proof. destruct c; intro H; try discriminate H; reflexivity. Qed.
Lemma digit_not_idstart_dot c : is_digit c = true -> is_id_start c = false /\ is_dot c = false.
Proof. destruct c; intro H; try discriminate H; split; reflexivity. Qed.

Lemma idstart_idchar c : is_id_start c = true -> is_id_char c = true.
Proof. unfold is_id_char. intros ->. reflexivity. Qed.
Lemma digit_idchar c : is_digit c = true -> is_id_char c = true.
Proof. unfold is_id_char. intros ->. apply orb_true_r. Qed.

(* the bytes the normaliser copies outside strings *)
Definition plain (c : byte) : bool := negb (is_ws c) && negb (is_quote c).
Lemma idchar_dot_plain c : is_id_char c || is_dot c = true -> plain c = true.
Proof. destruct c; intro H; try discriminate H; reflexivity. Qed.
Lemma idchar_plain c : is_id_char c = true -> plain c = true.
Proof. intros H. apply idchar_dot_plain. rewrite H. reflexivity. Qed.
Lemma digit_plain c : is_digit c = true -> plain c = true.
Proof. intro H. apply idchar_plain, digit_idchar, H. Qed.
Lemma dot_plain c : is_dot c = true -> plain c = true.
Proof. intros H. apply idchar_dot_plain. rewrite H. apply orb_true_r. Qed.
Lemma plain_not_ws c : plain c = true -> is_ws c = false.
Proof. unfold plain. destruct (is_ws c); [discriminate | reflexivity]. Qed.

Lemma span_spec p s a b :
  span p s = (a, b) -> s = a ++ b /\ forallb p a = true /\ next_is p b = false.
Proof.
  revert a b. induction s as [|c s IH]; intros a b H; cbn in H.
  - injection H as <- <-. auto.
  - destruct (p c) eqn:Hc; [|injection H as <- <-; cbn; auto].
    destruct (span p s) as [a' b']. injection H as <- <-.
    destruct (IH a' b' eq_refl) as (-> & Ha & Hb). cbn. rewrite Hc, Ha. auto.
Qed.

Lemma span_app p a b :
  forallb p a = true -> next_is p b = false -> span p (a ++ b) = (a, b).
Proof.
  intros Ha Hb. induction a as [|c a IH]; cbn in *.
  - destruct b as [|d b]; cbn in *; [reflexivity | rewrite Hb; reflexivity].
  - apply andb_true_iff in Ha as [Hc Ha]. rewrite Hc, (IH Ha). reflexivity.
Qed.

Lemma drop_while_app p a b :
  forallb p a = true -> next_is p b = false -> drop_while p (a ++ b) = b.
Proof.
  intros Ha Hb. induction a as [|c a IH]; cbn in *.
  - destruct b as [|d b]; cbn in *; [reflexivity | rewrite Hb; reflexivity].
  - apply andb_true_iff in Ha as [Hc Ha]. rewrite Hc. exact (IH Ha).
Qed.

Lemma drop_while_len p s : length (drop_while p s) <= length s.
Proof. induction s as [|c s IH]; cbn; [lia|]. destruct (p c); cbn; lia. Qed.

Lemma strip_prefix_spec p s r : strip_prefix p s = Some r -> s = p ++ r.
Proof.
  revert s. induction p as [|x p IH]; intros s H; cbn in H.
  - injection H as ->. reflexivity.
  - destruct s as [|y s]; [discriminate|]. destruct (beqb x y) eqn:E; [|discriminate].
    apply beqb_true in E as ->. rewrite (IH _ H). reflexivity.
Qed.

Lemma scan_str_spec : forall s b r, scan_str s = Some (b, r) -> s = b ++ r.
Proof.
  fix IH 1. intros [|c s] b r H; [discriminate H|]. cbn [scan_str] in H.
  destruct (is_quote c); [injection H as <- <-; reflexivity|].
  destruct (is_bslash c); [destruct s as [|d s]; [discriminate H|]|];
    (destruct (scan_str s) as [[b' r']|] eqn:E; [|discriminate H]);
    injection H as <- <-; rewrite (IH _ _ _ E); reflexivity.
Qed.

Lemma eat_len p r r' : eat p r = Some r' -> length r = S (length r').
Proof. destruct r as [|d r]; [discriminate|]. cbn. destruct (p d); [intros [= <-]; reflexivity | discriminate]. Qed.

Lemma punct_len c r o r' : punct c r = Some (o, r') -> length r' <= length r.
Proof.
  unfold punct. destruct c; try discriminate; try (intros [= _ <-]; lia).
  all: destruct (eat _ r) as [r1|] eqn:E; [apply eat_len in E|]; intros [= _ <-]; lia.
Qed.

Lemma lex_step_len s o r : lex_step s = Some (o, r) -> length r < length s.
Proof.
  destruct s as [|c s]; [discriminate|]. unfold lex_step. cbn [length].
  destruct (is_id_start c).
  { destruct (span is_id_char s) as [w rest] eqn:E. apply span_spec in E as [-> _].
    intros [= _ <-]. rewrite app_length. lia. }
  destruct (is_digit c) eqn:Hd.
  { unfold scan_num. cbn [span]. rewrite Hd.
    destruct (span is_digit s) as [a b] eqn:E. apply span_spec in E as [-> _].
    rewrite app_length. destruct b as [|d b']; [intros [= _ <-]; cbn; lia|].
    destruct (is_dot d); [|intros [= _ <-]; lia].
    destruct (span is_digit b') as [d2 r''] eqn:E2. apply span_spec in E2 as [-> _].
    destruct d2; intros [= _ <-]; cbn [length]; rewrite ?app_length; cbn [length]; lia. }
  destruct (is_ws c).
  { destruct (if is_space c then strip_prefix "in " s else None) as [r'|] eqn:E; intros [= _ <-].
    - destruct (is_space c); [|discriminate]. apply strip_prefix_spec in E as ->. cbn. lia.
    - pose proof (drop_while_len is_ws s). lia. }
  destruct (is_quote c).
  { destruct (scan_str s) as [[b rest]|] eqn:E; [|discriminate].
    intros [= _ <-]. apply scan_str_spec in E as ->. rewrite app_length. lia. }
  intros H. apply punct_len in H. lia.
Qed.

Lemma lex_f_fuel : forall f1 f2 s acc,
  length s <= f1 -> length s <= f2 -> lex_f f1 s acc = lex_f f2 s acc.
Proof.
  induction f1 as [|f1 IH]; intros [|f2] [|c s] acc H1 H2; try reflexivity; try (cbn in H1, H2; lia).
  cbn [lex_f]. destruct (lex_step (c :: s)) as [[[t|] r]|] eqn:E; [| |reflexivity];
    apply lex_step_len in E; apply IH; cbn [length] in *; lia.
Qed.

Corollary lex_fuel : forall s f, length s <= f -> lex_f f s [] = lex s.
Proof. intros s f H. apply lex_f_fuel; auto. Qed.

(* the lexer without fuel bookkeeping *)
Definition lexa (s : bytes) (acc : list token) : option (list token) := lex_f (length s) s acc.

Lemma lexa_nil acc : lexa [] acc = Some (rev acc).
Proof. unfold lexa. cbn. rewrite rev_append_rev, app_nil_r. reflexivity. Qed.

Lemma lexa_step s acc : s <> [] ->
  lexa s acc = match lex_step s with
               | None => None
               | Some (None, r) => lexa r acc
               | Some (Some t, r) => lexa r (t :: acc)
               end.
Proof.
  intro Hs. unfold lexa. destruct s as [|c s]; [congruence|].
  cbn [length lex_f]. destruct (lex_step (c :: s)) as [[[t|] r]|] eqn:E; [| |reflexivity];
    apply lex_step_len in E; apply lex_f_fuel; cbn in E; lia.
Qed.

Lemma next_is_app (p : byte -> bool) a b : a <> [] -> next_is p (a ++ b) = next_is p a.
Proof. destruct a; [congruence | reflexivity]. Qed.

Lemma kw_tok_ident s s' : kw_tok s = TIdent s' -> s' = s.
Proof.
  unfold kw_tok.
  repeat match goal with |- context [if ?b then _ else _] => destruct b; try discriminate end.
  intros [= <-]. reflexivity.
Qed.

Lemma lex_step_word c w rest :
  is_id_start c = true -> forallb is_id_char w = true -> next_is is_id_char rest = false ->
  lex_step ((c :: w) ++ rest) = Some (Some (kw_tok (c :: w)), rest).
Proof.
  intros Hc Hw Hr. cbn [app lex_step]. rewrite Hc, (span_app _ _ _ Hw Hr). reflexivity.
Qed.

Lemma str_body_ind (P : bytes -> Prop) :
  (forall c, is_quote c = true -> P [c]) ->
  (forall c d r, is_quote c = false -> is_bslash c = true -> str_body r = true -> P r ->
                 P (c :: d :: r)) ->
  (forall c r, is_quote c = false -> is_bslash c = false -> str_body r = true -> P r ->
               P (c :: r)) ->
  forall b, str_body b = true -> P b.
Proof.
  intros H1 H2 H3. fix IH 1. intros [|c r] Hb; [discriminate Hb|]. cbn [str_body] in Hb.
  destruct (is_quote c) eqn:Hq; [destruct r; [exact (H1 c Hq) | discriminate Hb]|].
  destruct (is_bslash c) eqn:Hs; [|exact (H3 c r Hq Hs Hb (IH r Hb))].
  destruct r as [|d r]; [discriminate Hb | exact (H2 c d r Hq Hs Hb (IH r Hb))].
Qed.

Lemma scan_str_body b rest : str_body b = true -> scan_str (b ++ rest) = Some (b, rest).
Proof.
  intro Hb. pattern b. apply str_body_ind; [ | | | exact Hb].
  - intros c Hq. cbn [app scan_str]. rewrite Hq. reflexivity.
  - intros c d r Hq Hs Hr IH. cbn [app scan_str]. rewrite Hq, Hs, IH. reflexivity.
  - intros c r Hq Hs Hr IH. cbn [app scan_str]. rewrite Hq, Hs, IH. reflexivity.
Qed.

Lemma number_shape s : number_okb s = true ->
  exists d1, d1 <> [] /\ forallb is_digit d1 = true /\
    (s = d1 \/ exists c d2, s = d1 ++ c :: d2 /\ is_dot c = true /\ d2 <> [] /\
                            forallb is_digit d2 = true).
Proof.
  unfold number_okb. destruct (span is_digit s) as [d1 r] eqn:E.
  apply span_spec in E as (-> & Hd1 & _). intro H. apply andb_true_iff in H as [Hn H].
  exists d1. split; [destruct d1; [discriminate Hn | discriminate]|]. split; [exact Hd1|].
  destruct r as [|c d2]; [left; apply app_nil_r | right].
  apply andb_true_iff in H as [H H2]. apply andb_true_iff in H as [Hc Hn2].
  exists c, d2. repeat split; auto. destruct d2; [discriminate Hn2 | discriminate].
Qed.

Lemma scan_num_ok s rest :
  number_okb s = true -> next_is (fun c => is_digit c || is_dot c) rest = false ->
  scan_num (s ++ rest) = (s, rest).
Proof.
  intros Hs Hr.
  assert (Hrd : next_is is_digit rest = false /\ next_is is_dot rest = false)
    by (destruct rest; [split; reflexivity | apply orb_false_iff, Hr]).
  destruct Hrd as [Hrd Hrdot].
  destruct (number_shape _ Hs) as (d1 & Hne & Hd1 & [-> | (c & d2 & -> & Hc & Hne2 & Hd2)]);
    unfold scan_num.
  - rewrite (span_app _ _ _ Hd1 Hrd). destruct rest as [|c r]; [reflexivity|].
    cbn in Hrdot. rewrite Hrdot. reflexivity.
  - rewrite <- app_assoc. cbn [app]. rewrite (span_app is_digit d1 (c :: d2 ++ rest) Hd1).
    2:{ cbn. destruct (is_digit c) eqn:E; [|reflexivity]. apply digit_not_idstart_dot in E as [_ E]. congruence. }
    rewrite Hc, (span_app _ _ _ Hd2 Hrd). destruct d2; [congruence | reflexivity].
Qed.

Lemma number_head s : number_okb s = true -> exists c s', s = c :: s' /\ is_digit c = true.
Proof.
  intro Hs. destruct (number_shape _ Hs) as (d1 & Hne & Hd1 & H).
  destruct d1 as [|c d1']; [congruence|]. apply andb_true_iff in Hd1 as [Hc _].
  destruct H as [-> | (c' & d2 & -> & _)]; eexists _, _; (split; [reflexivity | exact Hc]).
Qed.

Lemma tok_wfb_inv t : tok_wfb t = true ->
  match t with
  | TString s => exists b, s = x22 :: b /\ str_body b = true
  | TNumber s => number_okb s = true
  | TIdent s => exists c w, s = c :: w /\ is_id_start c = true /\ forallb is_id_char w = true /\
                            kw_tok s = TIdent s
  | _ => True
  end.
Proof.
  destruct t; try exact (fun _ => I); cbn [tok_wfb]; intros H.
  - destruct s as [|c b]; [discriminate H|]. apply andb_true_iff in H as [Hq Hb].
    apply is_quote_eq in Hq as ->. eauto.
  - exact H.
  - apply andb_true_iff in H as [Hi Hk]. destruct s as [|c w]; [discriminate Hi|].
    apply andb_true_iff in Hi as [Hc Hw]. exists c, w. repeat split; auto.
    destruct (kw_tok (c :: w)) eqn:E; try discriminate Hk. apply kw_tok_ident in E as ->. reflexivity.
Qed.

Lemma lex_step_tok t rest :
  tok_wfb t = true -> is_tin t = false -> follow_ok t rest = true ->
  lex_step (render_tok t ++ rest) = Some (Some t, rest).
Proof.
  intros Hwf Hin Hf. apply tok_wfb_inv in Hwf.
  destruct t; try discriminate Hin; try reflexivity; cbn [render_tok token_text follow_ok] in *;
    try (apply lex_step_word; [reflexivity | reflexivity | apply negb_true_iff, Hf]).
  1-3: destruct rest as [|d r]; [reflexivity|]; cbn in *; destruct (is_eq d); [discriminate Hf | reflexivity].
  - (* TString *)
    destruct Hwf as (b & -> & Hb). cbn [app lex_step is_id_start is_digit is_ws is_quote].
    rewrite (scan_str_body _ rest Hb). reflexivity.
  - (* TNumber *)
    destruct (number_head _ Hwf) as (c & s' & -> & Hc).
    cbn [app lex_step]. destruct (digit_not_idstart_dot _ Hc) as [-> _]. rewrite Hc.
    change (c :: s' ++ rest) with ((c :: s') ++ rest).
    rewrite (scan_num_ok _ rest Hwf); [reflexivity | apply negb_true_iff, Hf].
  - (* TIdent *)
    destruct Hwf as (c & w & -> & Hc & Hw & Hk).
    rewrite (lex_step_word _ _ rest Hc Hw), Hk; [reflexivity | apply negb_true_iff, Hf].
Qed.

(* the Go form of the white-space case: write one space, skip the rest of the run *)
Lemma norm_ws_run : forall s c, is_ws c = true ->
  norm false (c :: s) = x20 :: norm false (drop_while is_ws s).
Proof.
  induction s as [|d s IH]; intros c Hc; [cbn; rewrite Hc; reflexivity|].
  cbn [drop_while]. destruct (is_ws d) eqn:Hd; [rewrite <- (IH d Hd)|];
    cbn [norm]; rewrite Hc, Hd; reflexivity.
Qed.

Definition squash (l : bytes) : bytes := match l with [] => [] | _ => [x20] end.

Lemma norm_lay l rest : all_ws l = true -> next_is is_ws rest = false ->
  norm false (l ++ rest) = squash l ++ norm false rest.
Proof.
  intros Hl Hr. destruct l as [|c l]; [reflexivity|]. apply andb_true_iff in Hl as [Hc Hl].
  cbn [app]. rewrite (norm_ws_run _ _ Hc), (drop_while_app _ _ _ Hl Hr). reflexivity.
Qed.

Lemma norm_plain_app s rest : forallb plain s = true ->
  norm false (s ++ rest) = s ++ norm false rest.
Proof.
  induction s as [|c s IH]; intro H; [reflexivity|]. apply andb_true_iff in H as [Hc Hs].
  apply andb_true_iff in Hc as [H1 H2]. apply negb_true_iff in H1, H2.
  cbn [app norm]. rewrite H1, H2, (IH Hs). reflexivity.
Qed.

Lemma norm_str_body b rest : str_body b = true ->
  norm true (b ++ rest) = b ++ norm false rest.
Proof.
  intro Hb. pattern b. apply str_body_ind; [ | | | exact Hb].
  - intros c Hq. apply is_quote_eq in Hq as ->. reflexivity.
  - intros c d r Hq Hs Hr IH. cbn [app norm]. rewrite Hs, IH. reflexivity.
  - intros c r Hq Hs Hr IH. cbn [app norm]. rewrite Hq, Hs, IH. reflexivity.
Qed.

Lemma render_tok_plain t : tok_wfb t = true ->
  (exists b, render_tok t = x22 :: b /\ str_body b = true) \/
  (render_tok t <> [] /\ forallb plain (render_tok t) = true).
Proof.
  intros Hwf. apply tok_wfb_inv in Hwf.
  destruct t; try (right; split; [discriminate | reflexivity]); cbn [render_tok token_text].
  - destruct Hwf as (b & -> & Hb). left. eauto.
  - right. destruct (number_shape _ Hwf) as (d1 & Hne & Hd1 & [-> | (c & d2 & -> & Hc & _ & Hd2)]).
    + split; [exact Hne | exact (forallb_imp _ _ _ digit_plain Hd1)].
    + split; [destruct d1; [congruence | discriminate]|]. rewrite forallb_app. cbn [forallb].
      rewrite (forallb_imp _ _ _ digit_plain Hd1), (forallb_imp _ _ _ digit_plain Hd2),
        (dot_plain _ Hc). reflexivity.
  - right. destruct Hwf as (c & w & -> & Hc & Hw & _). split; [discriminate|]. cbn [forallb].
    rewrite (idchar_plain _ (idstart_idchar _ Hc)), (forallb_imp _ _ _ idchar_plain Hw). reflexivity.
Qed.

Lemma norm_tok t rest : tok_wfb t = true ->
  norm false (render_tok t ++ rest) = render_tok t ++ norm false rest.
Proof.
  intro Hwf. destruct (render_tok_plain t Hwf) as [(b & -> & Hb) | [_ Hp]].
  - cbn [app norm is_ws is_quote]. rewrite (norm_str_body _ _ Hb). reflexivity.
  - apply norm_plain_app, Hp.
Qed.

Lemma tok_head t : tok_wfb t = true ->
  exists c r, render_tok t = c :: r /\ is_ws c = false.
Proof.
  intro Hwf. destruct (render_tok_plain t Hwf) as [(b & -> & Hb) | [Hne Hp]]; [eauto|].
  destruct (render_tok t) as [|c r]; [congruence|]. apply andb_true_iff in Hp as [Hc _].
  exists c, r. split; [reflexivity | apply plain_not_ws, Hc].
Qed.

Lemma norm_render : forall lay toks,
  forallb tok_wfb toks = true -> forallb all_ws lay = true ->
  normalize_ws (render toks lay) = render toks (map squash lay).
Proof.
  unfold normalize_ws.
  induction lay as [|l lay IH]; intros toks Ht Hl; [reflexivity|].
  apply andb_true_iff in Hl as [Hl Hlay]. cbn [render map]. destruct toks as [|t toks].
  - rewrite !app_nil_r. rewrite <- (app_nil_r l) at 1.
    rewrite (norm_lay l [] Hl eq_refl). apply app_nil_r.
  - apply andb_true_iff in Ht as [Ht Htoks].
    rewrite norm_lay; [|exact Hl|].
    + rewrite (norm_tok _ _ Ht), (IH _ Htoks Hlay). reflexivity.
    + destruct (tok_head _ Ht) as (c & r & -> & Hc). exact Hc.
Qed.

(* why [separable] has its side conditions *)
Example ex_maximal_munch : lex "x  in y" = Some [TIdent "x"; TInWord; TIdent "y"].
Proof. vm_compute; reflexivity. Qed.
Example ex_after_normalising : lex_query "x  in y" = Some [TIdent "x"; TIn; TIdent "y"].
Proof. vm_compute; reflexivity. Qed.
Example ex_in_in : lex_query " in in " = Some [TIn; TInWord].
Proof. vm_compute; reflexivity. Qed.
Example ex_glued_number : lex_query "1.5" = Some [TNumber "1.5"]
                          /\ lex_query "1 .5" = Some [TNumber "1"; TDot; TNumber "5"].
Proof. split; vm_compute; reflexivity. Qed.
Example ex_no_rule : lex_query "a | b" = None /\ lex_query """abc" = None /\ lex_query "a # b" = None.
Proof. repeat split; vm_compute; reflexivity. Qed.

Lemma glue_okb_inv t1 t2 : glue_okb t1 t2 = true ->
  is_tin t1 = false /\ is_tin t2 = false /\ follow_ok t1 (render_tok t2) = true.
Proof.
  unfold glue_okb. destruct (is_tin t1), (is_tin t2), (follow_ok t1 (render_tok t2));
    cbn; intro H; try discriminate H; auto.
Qed.

Lemma sep_from_nil prev lay : sep_from prev [] lay = true -> exists l, lay = [l] /\ all_ws l = true.
Proof.
  cbn [sep_from]. destruct lay as [|l [|? ?]]; try discriminate. intros H.
  apply andb_true_iff in H. exists l. split; [reflexivity | apply H].
Qed.

Lemma sep_from_cons prev t toks lay : sep_from prev (t :: toks) lay = true ->
  exists l l2 lay', lay = l :: l2 :: lay' /\ all_ws l = true /\ gap_okb prev l t = true /\
    inword_okb t l l2 = true /\ sep_from (Some t) toks (l2 :: lay') = true.
Proof.
  cbn [sep_from]. destruct lay as [|l [|l2 lay']]; try discriminate. intros H.
  apply andb4 in H. exists l, l2, lay'. split; [reflexivity | exact H].
Qed.

Lemma sep_from_ws : forall toks prev lay,
  sep_from prev toks lay = true -> forallb all_ws lay = true.
Proof.
  induction toks as [|t toks IH]; intros prev lay H.
  - destruct (sep_from_nil _ _ H) as (l & -> & Hl). cbn. rewrite Hl. reflexivity.
  - destruct (sep_from_cons _ _ _ _ H) as (l & l2 & lay' & -> & Hl & _ & _ & Hrest).
    cbn [forallb]. rewrite Hl. exact (IH _ _ Hrest).
Qed.

Lemma gap_okb_ne prev l l' t : nonempty l' = nonempty l -> gap_okb prev l' t = gap_okb prev l t.
Proof. destruct l, l'; intro H; try discriminate H; reflexivity. Qed.

Lemma sep_from_map (f : bytes -> bytes) :
  (forall l, all_ws l = true -> all_ws (f l) = true) -> (forall l, nonempty (f l) = nonempty l) ->
  forall toks prev lay, sep_from prev toks lay = true -> sep_from prev toks (map f lay) = true.
Proof.
  intros Hws Hne. induction toks as [|t toks IH]; intros prev lay H.
  - destruct (sep_from_nil _ _ H) as (l & -> & Hl). cbn [map sep_from] in *.
    rewrite Hne, (Hws _ Hl). rewrite Hl in H. exact H.
  - destruct (sep_from_cons _ _ _ _ H) as (l & l2 & lay' & -> & Hl & Hgap & Hinw & Hrest).
    apply IH in Hrest. cbn [map sep_from] in *. unfold inword_okb in *.
    rewrite (Hws _ Hl), (gap_okb_ne prev l (f l) t (Hne l)), Hgap, !Hne, Hinw. exact Hrest.
Qed.

Lemma follow_space t r : follow_ok t (x20 :: r) = true.
Proof. destruct t; reflexivity. Qed.
Lemma follow_nil t : follow_ok t [] = true.
Proof. destruct t; reflexivity. Qed.
Lemma follow_app t a b : a <> [] -> follow_ok t (a ++ b) = follow_ok t a.
Proof. destruct a; [congruence|]. intros _. destruct t; reflexivity. Qed.

Lemma render_cons_lay toks l lay : render toks (l :: lay) = l ++ render toks ([] :: lay).
Proof. reflexivity. Qed.

Lemma render_head_ws toks lay :
  forallb tok_wfb toks = true -> next_is is_ws (render toks ([] :: lay)) = false.
Proof.
  destruct toks as [|t toks]; intro H; [reflexivity|]. apply andb_true_iff in H as [Ht _].
  cbn [render app]. destruct (tok_head _ Ht) as (c & r & -> & Hc). exact Hc.
Qed.

Lemma sep_follow t toks lay :
  forallb tok_wfb toks = true -> sep_from (Some t) toks lay = true ->
  follow_ok t (render toks (map squash lay)) = true.
Proof.
  intros Hwf H. destruct toks as [|t2 toks].
  - destruct (sep_from_nil _ _ H) as ([|c l] & -> & _); [apply follow_nil | apply follow_space].
  - destruct (sep_from_cons _ _ _ _ H) as ([|c l] & l2 & lay' & -> & _ & Hgap & _ & _);
      [|apply follow_space].
    apply andb_true_iff in Hwf as [Ht2 _]. destruct (tok_head _ Ht2) as (c & r & E & _).
    cbn [map squash render app]. rewrite follow_app by (rewrite E; discriminate).
    apply glue_okb_inv in Hgap. apply Hgap.
Qed.

Lemma sep_after_in toks l2 lay :
  sep_from (Some TIn) toks (l2 :: lay) = true -> l2 <> [] /\ sep_from None toks ([] :: lay) = true.
Proof.
  intros H. destruct toks as [|t2 toks].
  - cbn [sep_from] in H. destruct lay; [|discriminate H]. destruct l2; [discriminate H|].
    split; [discriminate | reflexivity].
  - destruct (sep_from_cons _ _ _ _ H) as (l & l3 & lay' & [= <- ->] & _ & Hgap & _ & Hrest).
    destruct l2; [discriminate Hgap|]. split; [discriminate|].
    cbn [sep_from all_ws forallb andb]. unfold inword_okb. cbn [nonempty].
    rewrite andb_false_r, Hrest, !andb_true_r. exact Hgap.
Qed.

(* the round trip on the layouts the normaliser produces *)
Lemma lexa_render : forall toks prev lay acc,
  forallb tok_wfb toks = true -> sep_from prev toks lay = true ->
  lexa (render toks (map squash lay)) acc = Some (rev acc ++ toks).
Proof.
  induction toks as [|t toks IH]; intros prev lay acc Hwf Hsep.
  - destruct (sep_from_nil _ _ Hsep) as (l & -> & _). rewrite app_nil_r.
    destruct l; cbn [map squash render app]; [|rewrite lexa_step by discriminate; cbn]; apply lexa_nil.
  - destruct (sep_from_cons _ _ _ _ Hsep) as (l & l2 & lay' & -> & _ & Hgap & Hinw & Hrest).
    apply andb_true_iff in Hwf as [Ht Hwf].
    destruct (is_tin t) eqn:Htin.
    + (* the token ' in ': it takes one space from each neighbouring layout *)
      destruct t; try discriminate Htin.
      destruct l as [|c l]; [destruct prev; [apply glue_okb_inv in Hgap as (_ & Hgap & _)|]; discriminate Hgap|].
      destruct (sep_after_in _ _ _ Hrest) as [Hl2 Hsep']. destruct l2 as [|c2 l2]; [congruence|].
      change (render (TIn :: toks) (map squash ((c :: l) :: (c2 :: l2) :: lay')))
        with (" in " ++ render toks (map squash ([] :: lay'))).
      rewrite lexa_step by discriminate.
      change (lex_step (" in " ++ render toks (map squash ([] :: lay'))))
        with (Some (Some TIn, render toks (map squash ([] :: lay')))).
      cbn iota. rewrite (IH _ _ _ Hwf Hsep'). cbn [rev]. rewrite <- app_assoc. reflexivity.
    + change (render (t :: toks) (map squash (l :: l2 :: lay')))
        with (squash l ++ render_tok t ++ render toks (map squash (l2 :: lay'))).
      pose proof (sep_follow _ _ _ Hwf Hrest) as Hfollow.
      pose proof (IH _ _ (t :: acc) Hwf Hrest) as IH'.
      remember (render toks (map squash (l2 :: lay'))) as rest eqn:Erest.
      pose proof (lex_step_tok t _ Ht Htin Hfollow) as Hstep.
      destruct (tok_head _ Ht) as (c & r & Ec & Hc).
      assert (Hmain : lexa (render_tok t ++ rest) acc = Some (rev acc ++ t :: toks)).
      { rewrite lexa_step by (rewrite Ec; discriminate).
        rewrite Hstep, IH'. cbn [rev]. rewrite <- app_assoc. reflexivity. }
      destruct l as [|c0 l]; [exact Hmain|].
      (* a space before the token: it is skipped unless "in " follows, and then the token is
         the word  in  with layout on both sides *)
      cbn [squash app]. rewrite lexa_step by discriminate.
      cbn [lex_step is_id_start is_digit is_ws is_space].
      destruct (strip_prefix "in " (render_tok t ++ rest)) as [r'|] eqn:E.
      * exfalso. apply strip_prefix_spec in E. rewrite E in Hstep.
        change (lex_step ("in " ++ r')) with (Some (Some TInWord, x20 :: r')) in Hstep.
        injection Hstep as <- Er. destruct l2; [|discriminate Hinw].
        (* no layout after the word: what follows starts with a token, not with a space *)
        assert (Hhead : next_is is_ws rest = false) by (rewrite Erest; apply render_head_ws, Hwf).
        rewrite <- Er in Hhead. discriminate Hhead.
      * rewrite Ec in *. cbn [app drop_while]. rewrite Hc. exact Hmain.
Qed.

Theorem lex_render : forall toks lay,
  forallb tok_wfb toks = true -> separable toks lay = true ->
  lex_query (render toks lay) = Some toks.
Proof.
  intros toks lay Hwf Hsep. unfold lex_query.
  rewrite (norm_render _ _ Hwf (sep_from_ws _ _ _ Hsep)). exact (lexa_render toks None lay [] Hwf Hsep).
Qed.
Print Assumptions lex_render.

Corollary lex_layout_irrelevant : forall toks lay1 lay2,
  forallb tok_wfb toks = true -> separable toks lay1 = true -> separable toks lay2 = true ->
  lex_query (render toks lay1) = lex_query (render toks lay2).
Proof. intros toks lay1 lay2 Hwf H1 H2. rewrite !lex_render; auto. Qed.
Print Assumptions lex_layout_irrelevant.

Lemma str_body_last b : str_body b = true -> b <> [] /\ last b x20 = x22.
Proof.
  intro Hb. pattern b. apply str_body_ind; [ | | | exact Hb].
  - intros c Hq. apply is_quote_eq in Hq as ->. split; [discriminate | reflexivity].
  - intros c d r _ _ _ [Hne Hl]. split; [discriminate|]. exact (eq_trans (last_app [c; d] r x20 Hne) Hl).
  - intros c r _ _ _ [Hne Hl]. split; [discriminate|]. exact (eq_trans (last_app [c] r x20 Hne) Hl).
Qed.

Lemma sep_from_snoc : forall toks prev lay, sep_from prev toks lay = true ->
  exists lay0 ll, lay = lay0 ++ [ll] /\ length lay0 = length toks /\ all_ws ll = true.
Proof.
  induction toks as [|t toks IH]; intros prev lay H.
  - destruct (sep_from_nil _ _ H) as (l & -> & Hl). exists [], l. auto.
  - destruct (sep_from_cons _ _ _ _ H) as (l & l2 & lay' & -> & _ & _ & _ & Hrest).
    destruct (IH _ _ Hrest) as (lay0 & ll & E & Hlen & Hll). exists (l :: lay0), ll.
    rewrite E. cbn [length]. rewrite Hlen. auto.
Qed.

Lemma render_snoc : forall toks lay0 ll, length lay0 = length toks ->
  render toks (lay0 ++ [ll]) = render toks (lay0 ++ [[]]) ++ ll.
Proof.
  induction toks as [|t toks IH]; intros [|l lay0] ll Hlen; try discriminate Hlen.
  - cbn [app render]. apply app_nil_r.
  - injection Hlen as Hlen. cbn [app render]. rewrite (IH _ ll Hlen), !app_assoc. reflexivity.
Qed.

(* with no token at all, [TFrom] stands for any token other than ' in ', here and in [relayout_lex] *)
Lemma sep_last_empty : forall toks prev lay0 ll,
  sep_from prev toks (lay0 ++ [ll]) = true -> length lay0 = length toks ->
  is_tin (last toks (match prev with Some p => p | None => TFrom end)) = false ->
  sep_from prev toks (lay0 ++ [[]]) = true.
Proof.
  induction toks as [|t toks IH]; intros prev [|l lay0] ll H Hlen Hlast; try discriminate Hlen.
  - cbn [app sep_from last] in *. destruct prev; [rewrite Hlast|]; reflexivity.
  - injection Hlen as Hlen. rewrite last_cons in Hlast. destruct lay0 as [|l2 lay0].
    + destruct toks; [|discriminate Hlen]. cbn [app sep_from last] in *.
      apply andb4 in H as (H1 & Hgap & _ & _). rewrite H1, Hgap, Hlast. unfold inword_okb.
      cbn [nonempty]. rewrite andb_false_r. reflexivity.
    + cbn [app] in *. cbn [sep_from] in H |- *. apply andb4 in H as (H1 & Hgap & Hinw & Hrest).
      rewrite H1, Hgap, Hinw. exact (IH (Some t) (l2 :: lay0) ll Hrest Hlen Hlast).
Qed.

Lemma relayout_lex toks lay0 ll (h : bytes -> bytes) :
  forallb tok_wfb toks = true -> sep_from None toks (lay0 ++ [ll]) = true ->
  length lay0 = length toks -> is_tin (last toks TFrom) = false ->
  (forall l, all_ws l = true -> all_ws (h l) = true) -> (forall l, nonempty (h l) = nonempty l) ->
  lex_query (render toks (map h lay0 ++ [[]])) = Some toks.
Proof.
  intros Hwf Hsep Hlen Hlast Hws Hne. apply lex_render; [exact Hwf|].
  apply (sep_last_empty toks None lay0 ll) in Hsep; [|exact Hlen | exact Hlast].
  apply (sep_from_map h Hws Hne) in Hsep. rewrite map_app in Hsep. cbn [map] in Hsep.
  specialize (Hne []). destruct (h []); [exact Hsep | discriminate Hne].
Qed.

(* a query with tabs, newlines, CR LF and glued tokens; its one-line form is [ex_text] *)
Definition ex_toks : list token :=
  [TFrom; TIdent "method_declaration"; TAs; TIdent "md"; TWhere;
   TIdent "md"; TDot; TIdent "getName"; TLParen; TRParen; TEqEq; TString """x  \"" y""";
   TAndAnd; TBang; TLParen; TIdent "a"; TLt; TNumber "2.5"; TRParen; TOrOr;
   TIdent "x"; TIn; TLBrack; TNumber "1"; TComma; TNumber "2"; TRBrack;
   TSelect; TIdent "md"].
Definition ex_lay : list bytes :=
  [[x0a; x09]; " "; [x09]; " "; [x0a];
   "  "; ""; ""; ""; ""; ""; "";
   ""; ""; ""; ""; ""; ""; ""; "";
   ""; [x20; x0a; x20]; [x09]; ""; ""; ""; "";
   [x0d; x0a]; " "; ""].

Example ex_wf : forallb tok_wfb ex_toks = true.
Proof. vm_compute; reflexivity. Qed.
Example ex_sep : separable ex_toks ex_lay = true.
Proof. vm_compute; reflexivity. Qed.
Example ex_lex : lex_query (render ex_toks ex_lay) = Some ex_toks.
Proof. vm_compute; reflexivity. Qed.
Example ex_text :
  normalize_ws (render ex_toks ex_lay) =
  " FROM method_declaration AS md WHERE md.getName()==""x  \"" y""&&!(a<2.5)||x in [1,2] SELECT md".
Proof. vm_compute; reflexivity. Qed.
