(* Proofs about Lang/Parser.v, in two halves and their sum:
   (a) parse_print_shape : parsing the tokens printed from a well-shaped AST gives the AST back
       (the lemmas named _rt; parse_print is the same for well-formed ASTs);
   (b) p_query_inv       : whatever the parser accepts is well-shaped, and its print is exactly the
       tokens read (the lemmas named _sound and _inv; print_parse is the second half);
   parse_tokens_iff puts (a) and (b) together: it is what the properties take.
   With LexerFacts.lex_render, (a) gives C11_roundtrip: text rendered from an AST with any
   separable layout parses to the AST. *)
From CPF Require Import Lang.Parser Lang.LexerFacts.
From Coq Require Import Lia PeanoNat.

Local Notation L := (@length token).

Definition hd_is (p : token -> bool) (ts : list token) : bool :=
  match ts with t :: _ => p t | [] => false end.

Definition is_pop {O} (pop : token -> option O) (t : token) : bool :=
  match pop t with Some _ => true | None => false end.

Lemma eat_tok_none p ts : hd_is p ts = false -> eat_tok p ts = None.
Proof. destruct ts as [|t ts]; cbn; [reflexivity|]. intros ->. reflexivity. Qed.

Lemma eat_tok_inv {p x} (Hp : forall t, p t = true -> t = x) {ts r} :
  eat_tok p ts = Some r -> ts = x :: r.
Proof.
  destruct ts as [|t ts]; cbn; [discriminate|]. destruct (p t) eqn:E; [|discriminate].
  intros [= <-]. rewrite (Hp _ E). reflexivity.
Qed.

Ltac tok_cases := let t := fresh "t" in intros t; destruct t; (reflexivity || discriminate).

Lemma is_lparen_inv : forall t, is_lparen t = true -> t = TLParen. Proof. tok_cases. Qed.
Lemma is_rparen_inv : forall t, is_rparen t = true -> t = TRParen. Proof. tok_cases. Qed.
Lemma is_lbrace_inv : forall t, is_lbrace t = true -> t = TLBrace. Proof. tok_cases. Qed.
Lemma is_rbrace_inv : forall t, is_rbrace t = true -> t = TRBrace. Proof. tok_cases. Qed.
Lemma is_rbrack_inv : forall t, is_rbrack t = true -> t = TRBrack. Proof. tok_cases. Qed.
Lemma is_comma_inv : forall t, is_comma t = true -> t = TComma. Proof. tok_cases. Qed.
Lemma is_tdot_inv : forall t, is_tdot t = true -> t = TDot. Proof. tok_cases. Qed.
Lemma is_oror_inv : forall t, is_oror t = true -> t = TOrOr. Proof. tok_cases. Qed.
Lemma is_andand_inv : forall t, is_andand t = true -> t = TAndAnd. Proof. tok_cases. Qed.
Lemma is_bang_inv : forall t, is_bang t = true -> t = TBang. Proof. tok_cases. Qed.
Lemma is_minus_inv : forall t, is_minus t = true -> t = TMinus. Proof. tok_cases. Qed.
Lemma is_predicate_inv : forall t, is_predicate t = true -> t = TPredicate. Proof. tok_cases. Qed.
Lemma is_from_inv : forall t, is_from t = true -> t = TFrom. Proof. tok_cases. Qed.
Lemma is_where_inv : forall t, is_where t = true -> t = TWhere. Proof. tok_cases. Qed.
Lemma is_select_inv : forall t, is_select t = true -> t = TSelect. Proof. tok_cases. Qed.

Lemma pop_eq_tok o : pop_eq (tok_eqop o) = Some o. Proof. destruct o; reflexivity. Qed.
Lemma pop_rel_tok o : pop_rel (tok_relop o) = Some o. Proof. destruct o; reflexivity. Qed.
Lemma pop_add_tok o : pop_add (tok_addop o) = Some o. Proof. destruct o; reflexivity. Qed.
Lemma pop_mul_tok o : pop_mul (tok_mulop o) = Some o. Proof. destruct o; reflexivity. Qed.
Lemma pop_eq_inv t o : pop_eq t = Some o -> t = tok_eqop o.
Proof. destruct t; try discriminate; intros [= <-]; reflexivity. Qed.
Lemma pop_rel_inv t o : pop_rel t = Some o -> t = tok_relop o.
Proof. destruct t; try discriminate; intros [= <-]; reflexivity. Qed.
Lemma pop_add_inv t o : pop_add t = Some o -> t = tok_addop o.
Proof. destruct t; try discriminate; intros [= <-]; reflexivity. Qed.
Lemma pop_mul_inv t o : pop_mul t = Some o -> t = tok_mulop o.
Proof. destruct t; try discriminate; intros [= <-]; reflexivity. Qed.

(* Follow sets, as numbers.  The expressions have levels: method-or-variable 1, primary 2, unary 3,
   then the binary levels from 4 (p_mul) to 9 (p_or).  A token [t] can continue exactly the
   expressions of level > lvl t: '(' continues an identifier into a call, '.' a primary into a
   chain, an operator the operands of its own level into the level above.  No token has level 2:
   a primary and a unary expression are followed by the same tokens, but the latter needs one more
   unit of fuel, and [rt] has one number for both. *)
Definition lvl (t : token) : nat :=
  match t with
  | TLParen => 0
  | TDot => 1
  | TStar | TSlash => 3
  | TPlus | TMinus => 4
  | TLt | TGt | TLe | TGe | TIn => 5
  | TEqEq | TNeq => 6
  | TAndAnd => 7
  | TOrOr => 8
  | _ => 9
  end.

(* the next token does not continue an expression of level <= k *)
Definition tok_stop (k : nat) (rest : list token) : bool :=
  match rest with [] => true | t :: _ => k <=? lvl t end.

Lemma tok_stop_S k rest : tok_stop (S k) rest = true -> tok_stop k rest = true.
Proof.
  destruct rest as [|t r]; cbn [tok_stop]; [reflexivity|]. rewrite !Nat.leb_le. lia.
Qed.
Lemma tok_stop_not (is_sep : token -> bool) k rest :
  (forall t, is_sep t = true -> lvl t = k) -> tok_stop (S k) rest = true -> hd_is is_sep rest = false.
Proof.
  intros H. destruct rest as [|t r]; cbn [tok_stop hd_is]; [reflexivity|]. intro Hs.
  destruct (is_sep t) eqn:E; [|reflexivity]. rewrite (H _ E) in Hs.
  apply Nat.leb_le in Hs. lia.
Qed.

Lemma lvl_oror : forall t, is_oror t = true -> lvl t = 8. Proof. tok_cases. Qed.
Lemma lvl_andand : forall t, is_andand t = true -> lvl t = 7. Proof. tok_cases. Qed.
Lemma lvl_pop_eq : forall t, is_pop pop_eq t = true -> lvl t = 6. Proof. tok_cases. Qed.
Lemma lvl_pop_rel : forall t, is_pop pop_rel t = true -> lvl t = 5. Proof. tok_cases. Qed.
Lemma lvl_pop_add : forall t, is_pop pop_add t = true -> lvl t = 4. Proof. tok_cases. Qed.
Lemma lvl_pop_mul : forall t, is_pop pop_mul t = true -> lvl t = 3. Proof. tok_cases. Qed.
Lemma lvl_tdot : forall t, is_tdot t = true -> lvl t = 1. Proof. tok_cases. Qed.
Lemma lvl_lparen : forall t, is_lparen t = true -> lvl t = 0. Proof. tok_cases. Qed.

(* the round trip of [p] at [e], an expression of level [k].  For the fuelled parsers [f] is the
   fuel of [p], of which a level-k expression needs k units to reach its leaves; for the others
   any [k] will do. *)
Definition rt {A} (pr : A -> list token) (p : parser A) (k f : nat) (e : A) : Prop :=
  forall rest, k + 4 * L (pr e) <= f -> tok_stop k rest = true -> p (pr e ++ rest) = Some (e, rest).

Ltac lens := repeat (progress (cbn [length] in *; rewrite ?app_length in *)).

Lemma many_sep_rt {A} is_sep sep (pr : A -> list token) (p : parser A) k f :
  is_sep sep = true -> tok_stop k [sep] = true ->
  forall r rest g,
  (forall x, In x r -> rt pr p k f x) ->
  k + 4 * L (flat_map (fun x => sep :: pr x) r) <= f ->
  L (flat_map (fun x => sep :: pr x) r) <= g ->
  hd_is is_sep rest = false -> tok_stop k rest = true ->
  many_sep is_sep p g (flat_map (fun x => sep :: pr x) r ++ rest) = Some (r, rest).
Proof.
  intros Hsep Hk. induction r as [|x r IH]; intros rest g Hp Hf Hg Hrest Hs; cbn [flat_map app] in *.
  - destruct rest, g; cbn in *; rewrite ?Hrest; reflexivity.
  - rewrite <- app_assoc. lens. destruct g as [|g]; [lia|]. cbn [many_sep]. rewrite Hsep.
    (* the item is followed by a separator, or by [rest] *)
    rewrite (Hp x (or_introl eq_refl)); [| lia | destruct r; [exact Hs | exact Hk]].
    rewrite IH; [reflexivity | intros y Hy; apply Hp; right; exact Hy | lia | lia | exact Hrest | exact Hs].
Qed.

Lemma many_op_rt {O A} (pop : token -> option O) tok_of (pr : A -> list token) (p : parser A) k f :
  (forall o, pop (tok_of o) = Some o) -> (forall o, tok_stop k [tok_of o] = true) ->
  (forall x, rt pr p k f x) ->
  forall r rest g,
  k + 4 * L (flat_map (fun q => tok_of (fst q) :: pr (snd q)) r) <= f ->
  L (flat_map (fun q => tok_of (fst q) :: pr (snd q)) r) <= g ->
  hd_is (is_pop pop) rest = false -> tok_stop k rest = true ->
  many_op pop p g (flat_map (fun q => tok_of (fst q) :: pr (snd q)) r ++ rest) = Some (r, rest).
Proof.
  intros Hpop Hk Hp. induction r as [|[o x] r IH]; intros rest g Hf Hg Hrest Hs;
    cbn [flat_map app fst snd] in *.
  - destruct rest as [|t rest], g; try reflexivity; cbn in *; unfold is_pop in Hrest;
      destruct (pop t); (discriminate || reflexivity).
  - rewrite <- app_assoc. lens. destruct g as [|g]; [lia|]. cbn [many_op]. rewrite Hpop.
    rewrite Hp; [| lia | destruct r as [|[o' y] r]; [exact Hs | apply Hk]].
    rewrite IH; [reflexivity | lia | lia | exact Hrest | exact Hs].
Qed.

Lemma lvl_sep_rt {A B} (mk : A -> list A -> B) is_sep sep (pr : A -> list token) (p : parser A)
  k f a r rest :
  is_sep sep = true -> tok_stop k [sep] = true ->
  (forall x, In x (a :: r) -> rt pr p k f x) -> k + 4 * L (pr_sep1 sep pr a r) <= f ->
  hd_is is_sep rest = false -> tok_stop k rest = true ->
  lvl_sep mk is_sep p f (pr_sep1 sep pr a r ++ rest) = Some (mk a r, rest).
Proof.
  intros Hsep Hk Hp Hf Hrest Hs. unfold lvl_sep, pr_sep1 in *. rewrite <- app_assoc. lens.
  rewrite (Hp a (or_introl eq_refl)); [| lia | destruct r; [exact Hs | exact Hk]].
  rewrite (many_sep_rt is_sep sep pr p k f Hsep Hk r rest f);
    [reflexivity | intros x Hx; apply Hp; right; exact Hx | lia | lia | exact Hrest | exact Hs].
Qed.

Definition rt_fuel {A} (pr : A -> list token) (p : nat -> parser A) (k f : nat) : Prop :=
  forall e, rt pr (p f) k f e.

(* a level of the grammar: items of level k joined by operators of level k make an expression
   of level k + 1 *)
Lemma lvl_op_rt {O A B} (mk : A -> list (O * A) -> B) (pop : token -> option O) tok_of
  (prA : A -> list token) (pA : nat -> parser A) k f :
  (forall o, pop (tok_of o) = Some o) -> (forall t, is_pop pop t = true -> lvl t = k) ->
  rt_fuel prA pA k f ->
  forall a r rest,
  S k + 4 * L (pr_op1 tok_of prA a r) <= S f -> tok_stop (S k) rest = true ->
  lvl_op mk pop (pA f) f (pr_op1 tok_of prA a r ++ rest) = Some (mk a r, rest).
Proof.
  intros Hpop Hlvl H a r rest Hf Hs.
  assert (Hk : forall o, tok_stop k [tok_of o] = true).
  { intro o. cbn. rewrite (Hlvl (tok_of o)); [apply Nat.leb_refl | unfold is_pop; rewrite Hpop; reflexivity]. }
  pose proof (tok_stop_S _ _ Hs) as Hs'.
  unfold lvl_op, pr_op1 in *. rewrite <- app_assoc. lens.
  rewrite H; [| lia | destruct r as [|[o y] r]; [exact Hs' | apply Hk]].
  rewrite (many_op_rt pop tok_of prA (pA f) k f Hpop Hk H r rest f);
    [reflexivity | lia | lia | exact (tok_stop_not _ _ _ Hlvl Hs) | exact Hs'].
Qed.

Lemma pr_or_leftmost e rest : exists u rest', pr_or e ++ rest = pr_un u ++ rest'.
Proof.
  destruct e as [[[[[[u ?] ?] ?] ?] ?] ?]. exists u.
  do 6 (cbn [pr_or pr_and pr_eq pr_rel pr_add pr_mul]; unfold pr_sep1, pr_op1).
  rewrite <- !app_assoc. eexists. reflexivity.
Qed.

Lemma pr_or_not_rparen e rest : hd_is is_rparen (pr_or e ++ rest) = false.
Proof.
  destruct (pr_or_leftmost e rest) as (u & rest' & ->).
  destruct u as [u|u|[[s|s]|v vs|x ms|f args|e']]; reflexivity.
Qed.

Lemma p_list_rparen_rt {A} (pr : A -> list token) (p : parser A) k f l rest :
  (forall x rest', hd_is is_rparen (pr x ++ rest') = false) ->
  (forall x, rt pr p k f x) -> tok_stop k [TComma] = true -> k + 4 * L (pr_list1 pr l) <= f ->
  p_list_rparen p f (pr_list1 pr l ++ TRParen :: rest) = Some (l, rest).
Proof.
  intros Hst Hp Hk Hf. destruct l as [|a r]; [reflexivity|].
  cbn [pr_list1] in *. unfold p_list_rparen. rewrite eat_tok_none.
  2:{ unfold pr_sep1. rewrite <- app_assoc. apply Hst. }
  rewrite (lvl_sep_rt cons is_comma TComma pr p k f a r (TRParen :: rest));
    [reflexivity | reflexivity | exact Hk | intros x _; apply Hp | exact Hf | reflexivity | exact Hk].
Qed.

Definition prim_start (t : token) : bool :=
  match t with TString _ | TNumber _ | TLBrack | TIdent _ | TLParen => true | _ => false end.

Lemma pr_prim_start p rest : hd_is prim_start (pr_prim p ++ rest) = true.
Proof. destruct p as [[s|s]|v vs|x ms|f args|e]; reflexivity. Qed.

Lemma p_un_prim f ts : hd_is prim_start ts = true ->
  p_un (S f) ts = match p_prim f ts with Some (p, r1) => Some (APrim p, r1) | None => None end.
Proof. destruct ts as [|[] r]; try discriminate; reflexivity. Qed.

Definition rt_levels (f : nat) : Prop :=
  rt_fuel pr_prim p_prim 2 f /\ rt_fuel pr_mov p_mov 1 f /\ rt_fuel pr_un p_un 3 f /\
  rt_fuel pr_mul p_mul 4 f /\ rt_fuel pr_add p_add 5 f /\ rt_fuel pr_rel p_rel 6 f /\
  rt_fuel pr_eq p_eq 7 f /\ rt_fuel pr_and p_and 8 f /\ rt_fuel pr_or p_or 9 f.

Lemma rt_levels_all : forall f, rt_levels f.
Proof.
  induction f as [|f (Hprim & Hmov & Hun & Hmul & Hadd & Hrel & Heq & Hand & Hor)].
  { repeat split; intros ? ? H; cbn in H; lia. }
  assert (Hargs := fun args rest => p_list_rparen_rt pr_or (p_or f) 9 f args rest pr_or_not_rparen Hor eq_refl).
  repeat split.
  - intros p rest Hf Hs.
    destruct p as [[s|s]|v vs|x ms|g args|e]; cbn [pr_prim pr_value1 pr_value p_prim app] in *;
      try reflexivity; try (rewrite <- app_assoc; cbn [app]); lens.
    + rewrite (lvl_sep_rt PList is_comma TComma pr_value1 p_value 0 f v vs (TRBrack :: rest));
        try reflexivity; [|lia]. intros [s|s] _ rest' _ _; reflexivity.
    + (* a chain: [rest] starts with neither '(' nor '.' *)
      pose proof (tok_stop_S _ _ Hs) as Hs1.
      rewrite eat_tok_none by (destruct ms; [exact (tok_stop_not _ _ _ lvl_lparen Hs1) | reflexivity]).
      rewrite (many_sep_rt is_tdot TDot pr_mov (p_mov f) 1 f eq_refl eq_refl ms rest f);
        [reflexivity | intros m _; apply Hmov | lia | lia | exact (tok_stop_not _ _ _ lvl_tdot Hs) | exact Hs1].
    + cbn [eat_tok is_lparen].
      rewrite Hargs; [reflexivity | lia].
    + rewrite Hor; [reflexivity | lia | reflexivity].
  - intros [x|g args] rest Hf Hs; cbn [pr_mov p_mov app] in *.
    + rewrite (eat_tok_none _ _ (tok_stop_not _ _ _ lvl_lparen Hs)). reflexivity.
    + rewrite <- app_assoc. cbn [app eat_tok is_lparen]. lens.
      rewrite Hargs; [reflexivity | lia].
  - intros [u|u|p] rest Hf Hs; cbn [pr_un app length] in *.
    + cbn [p_un is_bang]. rewrite Hun; [reflexivity | lia | exact Hs].
    + cbn [p_un is_bang is_minus]. rewrite Hun; [reflexivity | lia | exact Hs].
    + rewrite p_un_prim by apply pr_prim_start.
      rewrite Hprim; [reflexivity | lia | exact (tok_stop_S _ _ Hs)].
  - intros [a r] rest. cbn [pr_mul p_mul]. eapply lvl_op_rt; eauto using lvl_pop_mul, pop_mul_tok.
  - intros [a r] rest. cbn [pr_add p_add]. eapply lvl_op_rt; eauto using lvl_pop_add, pop_add_tok.
  - intros [a r] rest. cbn [pr_rel p_rel]. eapply lvl_op_rt; eauto using lvl_pop_rel, pop_rel_tok.
  - intros [a r] rest. cbn [pr_eq p_eq]. eapply lvl_op_rt; eauto using lvl_pop_eq, pop_eq_tok.
  - intros [a r] rest. cbn [pr_and p_and]. intros Hf Hs.
    apply (lvl_sep_rt AAnd is_andand TAndAnd pr_eq (p_eq f) 7); try reflexivity;
      [intros x _; apply Heq | lia | exact (tok_stop_not _ _ _ lvl_andand Hs) | exact (tok_stop_S _ _ Hs)].
  - intros [a r] rest. cbn [pr_or p_or]. intros Hf Hs.
    apply (lvl_sep_rt AOr is_oror TOrOr pr_and (p_and f) 8); try reflexivity;
      [intros x _; apply Hand | lia | exact (tok_stop_not _ _ _ lvl_oror Hs) | exact (tok_stop_S _ _ Hs)].
Qed.

Lemma p_or_rt f : rt_fuel pr_or p_or 9 f. Proof. apply rt_levels_all. Qed.
Lemma p_mov_rt f : rt_fuel pr_mov p_mov 1 f. Proof. apply rt_levels_all. Qed.

Lemma p_pred_rest_rt f d : rt pr_pred_rest (p_pred_rest f) 0 f d.
Proof.
  destruct d as [name params body]. intros rest Hf _. revert Hf.
  unfold pr_pred_rest, p_pred_rest. cbn [ap_name ap_params ap_body]. intro Hf. lens.
  cbn [app]. rewrite <- app_assoc. cbn [app]. rewrite <- app_assoc. cbn [app eat_tok is_lparen].
  rewrite (p_list_rparen_rt pr_param p_param 0 f params); [ | | | reflexivity | lia].
  - cbn [eat_tok is_lbrace]. rewrite p_or_rt; [reflexivity | lia | reflexivity].
  - intros [a b] rest'. reflexivity.
  - intros [a b] rest' _ _. reflexivity.
Qed.

Lemma pr_sel_mk m ms : pr_sel (mk_sel m ms) = pr_sep1 TDot pr_mov m ms.
Proof. destruct m; destruct ms; reflexivity. Qed.

Lemma mk_sel_chain m ms : sel_okb (ASelChain m ms) = true -> mk_sel m ms = ASelChain m ms.
Proof. destruct m; destruct ms; cbn; (discriminate || reflexivity). Qed.

Lemma p_sel_rt f s : sel_okb s = true -> rt pr_sel (p_sel f) 2 f s.
Proof.
  intros Hok rest Hf Hs.
  assert (G : forall m ms, 2 + 4 * L (pr_sep1 TDot pr_mov m ms) <= f ->
              lvl_sep mk_sel is_tdot (p_mov f) f (pr_sep1 TDot pr_mov m ms ++ rest)
              = Some (mk_sel m ms, rest)).
  { intros m ms Hf'. apply (lvl_sep_rt mk_sel is_tdot TDot pr_mov (p_mov f) 1);
      [reflexivity | reflexivity | intros x _; apply p_mov_rt | lia | exact (tok_stop_not _ _ _ lvl_tdot Hs)
        | exact (tok_stop_S _ _ Hs)]. }
  destruct s as [x|m ms|s]; cbn [pr_sel] in *.
  - exact (G (AMVar x) [] Hf).
  - fold (pr_sep1 TDot pr_mov m ms) in *. rewrite <- (mk_sel_chain _ _ Hok), <- (G m ms Hf).
    unfold pr_sep1. destruct m; reflexivity.
  - reflexivity.
Qed.

Lemma p_query_print q f :
  aquery_shapeb q = true -> 8 + 4 * L (tokens_of_query q) <= f ->
  p_query f (tokens_of_query q) = Some q.
Proof.
  destruct q as [preds [|fa fr] w [|sa sr]]; unfold aquery_shapeb, tokens_of_query, p_query;
    cbn [aq_preds aq_from aq_where aq_select nonempty andb pr_list1]; intros Hsel Hf;
    try discriminate Hsel. lens.
  rewrite (many_sep_rt is_predicate TPredicate pr_pred_rest (p_pred_rest f) 0 f eq_refl eq_refl preds _ f);
    [ | intros d _; apply p_pred_rest_rt | lia | lia | reflexivity | reflexivity ].
  cbn [eat_tok is_from].
  rewrite (lvl_sep_rt cons is_comma TComma pr_from_item p_from_item 0 f fa fr);
    [ | reflexivity | reflexivity | intros [a b] _ rest' _ _; reflexivity | lia
      | destruct w; reflexivity | destruct w; reflexivity ].
  assert (Hw : forall rest, p_where f (pr_where w ++ TSelect :: rest) = Some (w, TSelect :: rest)).
  { intros rest. destruct w as [e|]; [|reflexivity]. unfold p_where. cbn [pr_where app eat_tok is_where length] in *.
    rewrite p_or_rt; [reflexivity | lia | reflexivity]. }
  rewrite Hw. cbn [eat_tok is_select].
  rewrite <- (app_nil_r (pr_sep1 _ _ _ _)).
  rewrite (lvl_sep_rt cons is_comma TComma pr_sel (p_sel f) 2 f sa sr []); try reflexivity; [|lia].
  intros s Hs. apply p_sel_rt. apply (proj1 (forallb_forall _ _) Hsel). exact Hs.
Qed.

Theorem parse_print_shape : forall q,
  aquery_shapeb q = true -> parse_tokens (tokens_of_query q) = Some q.
Proof. intros q Hq. apply p_query_print; [exact Hq | unfold parse_fuel; lia]. Qed.
Print Assumptions parse_print_shape.

Theorem parse_print : forall q,
  aquery_wfb q = true -> parse_tokens (tokens_of_query q) = Some q.
Proof.
  intros q Hq. unfold aquery_wfb in Hq. apply andb_true_iff in Hq. apply parse_print_shape, Hq.
Qed.
Print Assumptions parse_print.

Theorem C11_roundtrip : forall q lay,
  aquery_wfb q = true -> separable (tokens_of_query q) lay = true ->
  parse_query (render (tokens_of_query q) lay) = Some q.
Proof.
  intros q lay Hq Hsep. unfold aquery_wfb in Hq. apply andb_true_iff in Hq.
  destruct Hq as [Hshape Hwf]. unfold parse_query.
  rewrite (lex_render _ _ Hwf Hsep). apply parse_print_shape, Hshape.
Qed.
Print Assumptions C11_roundtrip.

Definition sound {A} (pr : A -> list token) (p : parser A) : Prop :=
  forall ts e rest, p ts = Some (e, rest) -> ts = pr e ++ rest.

(* [H : match c with Some pat => _ | None => None end = Some _]: [c] succeeded; name its result *)
Tactic Notation "run" hyp(H) "as" simple_intropattern(pat) "eqn" ":" ident(E) :=
  match type of H with
  | match ?c with _ => _ end = _ => destruct c as [pat|] eqn:E; [|discriminate H]
  end.

Lemma many_sep_sound {A is_sep sep} {p : parser A} {pr} :
  (forall t, is_sep t = true -> t = sep) -> sound pr p ->
  forall g ts r rest, many_sep is_sep p g ts = Some (r, rest) ->
                      ts = flat_map (fun x => sep :: pr x) r ++ rest.
Proof.
  intros Hsep Hp. induction g as [|g IH]; intros [|t ts] r rest H; cbn [many_sep] in H.
  1, 3: injection H as <- <-; reflexivity.
  all: destruct (is_sep t) eqn:Et; [ | injection H as <- <-; reflexivity ].
  - discriminate H.
  - apply Hsep in Et as ->. run H as [x ts1] eqn:Ep. run H as [xs ts2] eqn:Em.
    injection H as <- <-. apply Hp in Ep as ->. apply IH in Em as ->.
    cbn [flat_map]. rewrite <- app_assoc. reflexivity.
Qed.

Lemma many_sep_forall {A} (P : A -> Prop) is_sep (p : parser A) :
  (forall ts x rest, p ts = Some (x, rest) -> P x) ->
  forall g ts r rest, many_sep is_sep p g ts = Some (r, rest) -> Forall P r.
Proof.
  intros Hp. induction g as [|g IH]; intros [|t ts] r rest H; cbn [many_sep] in H.
  1, 3: injection H as <- _; constructor.
  all: destruct (is_sep t); [ | injection H as <- _; constructor ].
  - discriminate H.
  - run H as [x ts1] eqn:Ep. run H as [xs ts2] eqn:Em. injection H as <- _.
    constructor; [exact (Hp _ _ _ Ep) | exact (IH _ _ _ Em)].
Qed.

Lemma many_op_sound {O A} {pop : token -> option O} {tok_of} {p : parser A} {pr} :
  (forall t o, pop t = Some o -> t = tok_of o) -> sound pr p ->
  forall g ts r rest, many_op pop p g ts = Some (r, rest) ->
                      ts = flat_map (fun q => tok_of (fst q) :: pr (snd q)) r ++ rest.
Proof.
  intros Hpop Hp. induction g as [|g IH]; intros [|t ts] r rest H; cbn [many_op] in H.
  1, 3: injection H as <- <-; reflexivity.
  all: destruct (pop t) as [o|] eqn:Et; [ | injection H as <- <-; reflexivity ].
  - discriminate H.
  - apply Hpop in Et as ->. run H as [x ts1] eqn:Ep. run H as [xs ts2] eqn:Em.
    injection H as <- <-. apply Hp in Ep as ->. apply IH in Em as ->.
    cbn [flat_map fst snd]. rewrite <- app_assoc. reflexivity.
Qed.

Lemma lvl_sep_inv {A B} (mk : A -> list A -> B) {is_sep sep} {p : parser A} {pr} :
  (forall t, is_sep t = true -> t = sep) -> sound pr p ->
  forall g ts b rest, lvl_sep mk is_sep p g ts = Some (b, rest) ->
                      exists a r, b = mk a r /\ ts = pr_sep1 sep pr a r ++ rest.
Proof.
  intros Hsep Hp g ts b rest H. unfold lvl_sep in H.
  run H as [a ts1] eqn:Ep. run H as [r ts2] eqn:Em. injection H as <- <-.
  apply Hp in Ep as ->. apply (many_sep_sound Hsep Hp) in Em as ->.
  exists a, r. split; [reflexivity|]. unfold pr_sep1. rewrite <- app_assoc. reflexivity.
Qed.

Lemma lvl_sep_sound {A B} (mk : A -> list A -> B) {is_sep sep} {p : parser A} {pr} prB g :
  (forall t, is_sep t = true -> t = sep) -> sound pr p ->
  (forall a r, prB (mk a r) = pr_sep1 sep pr a r) -> sound prB (lvl_sep mk is_sep p g).
Proof.
  intros Hsep Hp Hmk ts b rest H.
  destruct (lvl_sep_inv mk Hsep Hp g ts b rest H) as (a & r & -> & ->). rewrite Hmk. reflexivity.
Qed.

Lemma lvl_op_sound {O A B} (mk : A -> list (O * A) -> B) {pop : token -> option O} {tok_of}
  {p : parser A} {pr} prB g :
  (forall t o, pop t = Some o -> t = tok_of o) -> sound pr p ->
  (forall a r, prB (mk a r) = pr_op1 tok_of pr a r) -> sound prB (lvl_op mk pop p g).
Proof.
  intros Hpop Hp Hmk ts b rest H. unfold lvl_op in H.
  run H as [a ts1] eqn:Ep. run H as [r ts2] eqn:Em. injection H as <- <-.
  apply Hp in Ep as ->. apply (many_op_sound Hpop Hp) in Em as ->.
  rewrite Hmk. unfold pr_op1. rewrite <- app_assoc. reflexivity.
Qed.

Lemma p_list_rparen_sound {A} {p : parser A} {pr} g :
  sound pr p ->
  forall ts l rest, p_list_rparen p g ts = Some (l, rest) ->
                    ts = pr_list1 pr l ++ TRParen :: rest.
Proof.
  intros Hp ts l rest H. unfold p_list_rparen in H.
  destruct (eat_tok is_rparen ts) as [r|] eqn:E.
  - injection H as <- <-. apply (eat_tok_inv is_rparen_inv) in E as ->. reflexivity.
  - run H as [l' ts1] eqn:El. run H as ts2 eqn:E2. injection H as <- <-.
    apply (eat_tok_inv is_rparen_inv) in E2 as ->.
    exact (lvl_sep_sound cons (pr_list1 pr) g is_comma_inv Hp (fun a r => eq_refl) _ _ _ El).
Qed.

Lemma p_value_sound : sound pr_value1 p_value.
Proof.
  intros [|[] r] e rest H; try discriminate H; injection H as <- <-; reflexivity.
Qed.

Definition sound_levels (f : nat) : Prop :=
  sound pr_or (p_or f) /\ sound pr_and (p_and f) /\ sound pr_eq (p_eq f) /\
  sound pr_rel (p_rel f) /\ sound pr_add (p_add f) /\ sound pr_mul (p_mul f) /\
  sound pr_un (p_un f) /\ sound pr_prim (p_prim f) /\ sound pr_mov (p_mov f).

Lemma sound_levels_all : forall f, sound_levels f.
Proof.
  induction f as [|f (Hor & Hand & Heq & Hrel & Hadd & Hmul & Hun & Hprim & Hmov)].
  { repeat split; intros ts e rest H; discriminate H. }
  assert (Hargs := p_list_rparen_sound f Hor).
  repeat split.
  - exact (lvl_sep_sound AOr pr_or f is_oror_inv Hand (fun a r => eq_refl)).
  - exact (lvl_sep_sound AAnd pr_and f is_andand_inv Heq (fun a r => eq_refl)).
  - exact (lvl_op_sound AEq pr_eq f pop_eq_inv Hrel (fun a r => eq_refl)).
  - exact (lvl_op_sound ARel pr_rel f pop_rel_inv Hadd (fun a r => eq_refl)).
  - exact (lvl_op_sound AAdd pr_add f pop_add_inv Hmul (fun a r => eq_refl)).
  - exact (lvl_op_sound AMul pr_mul f pop_mul_inv Hun (fun a r => eq_refl)).
  - intros [|t r] e rest H; [discriminate H|]. cbn [p_un] in H.
    destruct (is_bang t) eqn:Eb; [|destruct (is_minus t) eqn:Em]; run H as [u r1] eqn:E; injection H as <- <-.
    + apply is_bang_inv in Eb as ->. apply Hun in E as ->. reflexivity.
    + apply is_minus_inv in Em as ->. apply Hun in E as ->. reflexivity.
    + apply Hprim in E. exact E.
  - intros [|t r] e rest H; [discriminate H|]. cbn [p_prim] in H.
    destruct t; try discriminate H; try (injection H as <- <-; reflexivity).
    + (* ( e ) *)
      run H as [e0 r1] eqn:E. run H as r2 eqn:E2. injection H as <- <-.
      apply (eat_tok_inv is_rparen_inv) in E2 as ->. apply Hor in E as ->.
      cbn [pr_prim app]. rewrite <- app_assoc. reflexivity.
    + (* [ v, ... ] *)
      run H as [pl r1] eqn:E. run H as r2 eqn:E2. injection H as <- <-.
      apply (eat_tok_inv is_rbrack_inv) in E2 as ->.
      apply (lvl_sep_inv PList is_comma_inv p_value_sound) in E as (v & vs & -> & ->).
      cbn [pr_prim app]. rewrite <- app_assoc. reflexivity.
    + (* identifier: call or chain *)
      destruct (eat_tok is_lparen r) as [r1|] eqn:E1.
      * run H as [args r2] eqn:E. injection H as <- <-.
        apply (eat_tok_inv is_lparen_inv) in E1 as ->. apply Hargs in E as ->.
        cbn [pr_prim app]. rewrite <- app_assoc. reflexivity.
      * run H as [ms r1] eqn:E. injection H as <- <-.
        apply (many_sep_sound is_tdot_inv Hmov) in E as ->. reflexivity.
  - intros [|[] r] e rest H; try discriminate H. cbn [p_mov] in H.
    destruct (eat_tok is_lparen r) as [r1|] eqn:E1; [|injection H as <- <-; reflexivity].
    run H as [args r2] eqn:E. injection H as <- <-.
    apply (eat_tok_inv is_lparen_inv) in E1 as ->. apply Hargs in E as ->.
    cbn [pr_mov app]. rewrite <- app_assoc. reflexivity.
Qed.

Lemma p_or_sound f : sound pr_or (p_or f). Proof. apply sound_levels_all. Qed.
Lemma p_mov_sound f : sound pr_mov (p_mov f). Proof. apply sound_levels_all. Qed.

Theorem tokens_of_orx_sound : forall f ts e rest,
  p_or f ts = Some (e, rest) -> ts = tokens_of_orx e ++ rest.
Proof. intros f ts e rest H. exact (p_or_sound f ts e rest H). Qed.

Lemma p_param_sound : sound pr_param p_param.
Proof.
  intros [|[] r1] e rest H; try discriminate H. destruct r1 as [|[] r2]; try discriminate H.
  injection H as <- <-. reflexivity.
Qed.

Lemma p_from_item_sound : sound pr_from_item p_from_item.
Proof.
  intros [|[] r1] e rest H; try discriminate H. destruct r1 as [|[] r2]; try discriminate H.
  destruct r2 as [|[] r3]; try discriminate H. injection H as <- <-. reflexivity.
Qed.

Lemma p_pred_rest_sound f : sound pr_pred_rest (p_pred_rest f).
Proof.
  intros [|[] r] d rest H; try discriminate H. unfold p_pred_rest in H.
  run H as r1 eqn:E1. run H as [params r2] eqn:E2. run H as r3 eqn:E3.
  run H as [body r4] eqn:E4. run H as r5 eqn:E5. injection H as <- <-.
  apply (eat_tok_inv is_lparen_inv) in E1 as ->. apply (p_list_rparen_sound f p_param_sound) in E2 as ->.
  apply (eat_tok_inv is_lbrace_inv) in E3 as ->. apply p_or_sound in E4 as ->.
  apply (eat_tok_inv is_rbrace_inv) in E5 as ->.
  unfold pr_pred_rest. cbn [ap_name ap_params ap_body app].
  rewrite <- !app_assoc. cbn [app]. rewrite <- app_assoc. reflexivity.
Qed.

Lemma p_sel_inv f ts s rest :
  p_sel f ts = Some (s, rest) -> ts = pr_sel s ++ rest /\ sel_okb s = true.
Proof.
  assert (G : lvl_sep mk_sel is_tdot (p_mov f) f ts = Some (s, rest) ->
              ts = pr_sel s ++ rest /\ sel_okb s = true).
  { intro H. apply (lvl_sep_inv mk_sel is_tdot_inv (p_mov_sound f)) in H as (m & ms & -> & ->).
    rewrite pr_sel_mk. split; [reflexivity|]. destruct m; destruct ms; reflexivity. }
  unfold p_sel. destruct ts as [|[] r]; try exact G. intros [= <- <-]. split; reflexivity.
Qed.

Lemma p_where_sound f ts w rest : p_where f ts = Some (w, rest) -> ts = pr_where w ++ rest.
Proof.
  unfold p_where. intro H. destruct (eat_tok is_where ts) as [r|] eqn:E.
  - run H as [e r1] eqn:E1. injection H as <- <-. apply (eat_tok_inv is_where_inv) in E as ->.
    apply p_or_sound in E1 as ->. reflexivity.
  - injection H as <- <-. reflexivity.
Qed.

Lemma p_query_inv f ts q :
  p_query f ts = Some q -> aquery_shapeb q = true /\ tokens_of_query q = ts.
Proof.
  unfold p_query. intro H.
  run H as [preds r1] eqn:E1. run H as r2 eqn:E2. run H as [from r3] eqn:E3.
  run H as [w r4] eqn:E4. run H as r5 eqn:E5. run H as [sel r6] eqn:E6.
  destruct r6; [|discriminate H]. injection H as <-.
  apply (many_sep_sound is_predicate_inv (p_pred_rest_sound f)) in E1 as ->.
  apply (eat_tok_inv is_from_inv) in E2 as ->.
  apply (lvl_sep_inv cons is_comma_inv p_from_item_sound) in E3 as (fa & fr & -> & ->).
  apply p_where_sound in E4 as ->. apply (eat_tok_inv is_select_inv) in E5 as ->.
  unfold lvl_sep in E6. run E6 as [sa t1] eqn:Es. run E6 as [sr t2] eqn:Em. injection E6 as <- ->.
  destruct (p_sel_inv _ _ _ _ Es) as [-> Hsa].
  pose proof (many_sep_forall _ is_comma (p_sel f) (fun ts x rest H => proj2 (p_sel_inv f ts x rest H))
                _ _ _ _ Em) as Hsr.
  apply (many_sep_sound is_comma_inv (fun ts x rest H => proj1 (p_sel_inv f ts x rest H))) in Em as ->.
  split.
  - unfold aquery_shapeb. cbn [aq_from aq_select nonempty forallb andb]. rewrite Hsa.
    apply forallb_forall, Forall_forall, Hsr.
  - unfold tokens_of_query, pr_sep1. cbn [aq_preds aq_from aq_where aq_select pr_list1].
    rewrite app_nil_r. reflexivity.
Qed.

Theorem print_parse : forall ts q, parse_tokens ts = Some q -> tokens_of_query q = ts.
Proof. intros ts q H. apply (p_query_inv _ _ _ H). Qed.
Print Assumptions print_parse.

Theorem parse_tokens_iff : forall ts q,
  parse_tokens ts = Some q <-> aquery_shapeb q = true /\ tokens_of_query q = ts.
Proof.
  intros ts q. split; [apply p_query_inv|]. intros [Hs <-]. apply parse_print_shape, Hs.
Qed.
Print Assumptions parse_tokens_iff.

Corollary tokens_of_query_inj : forall q1 q2,
  aquery_shapeb q1 = true -> aquery_shapeb q2 = true ->
  tokens_of_query q1 = tokens_of_query q2 -> q1 = q2.
Proof.
  intros q1 q2 H1 H2 E. apply parse_print_shape in H1. apply parse_print_shape in H2.
  rewrite E in H1. congruence.
Qed.

Corollary parse_layout_irrelevant : forall toks lay1 lay2,
  forallb tok_wfb toks = true -> separable toks lay1 = true -> separable toks lay2 = true ->
  parse_query (render toks lay1) = parse_query (render toks lay2).
Proof.
  intros toks lay1 lay2 Hwf H1 H2. unfold parse_query.
  rewrite (lex_layout_irrelevant toks lay1 lay2 Hwf H1 H2). reflexivity.
Qed.

Corollary parse_query_tokens : forall s q,
  parse_query s = Some q -> lex_query s = Some (tokens_of_query q).
Proof.
  intros s q. unfold parse_query. destruct (lex_query s) as [ts|]; [|discriminate].
  intro H. apply print_parse in H. rewrite H. reflexivity.
Qed.

Definition ex_src : bytes := "predicate isTest(string name, int n) { name == ""test"" || n > 3 }
FROM method_declaration AS md, class_declaration AS cd
WHERE (md.getName() == ""onCreate"" || isTest(md.getName(), 3))
  && !(cd.getVisibility() in [""public"", ""protected""])
  && md.getBody().size(1+2*3, -x).y != -4 / 2
SELECT md.getName(), cd, ""literal"", f(1)".

Definition ex_flat : query :=
  {| q_preds :=
       [{| pd_name := "isTest";
           pd_params := [("string", "name"); ("int", "n")];
           pd_body :=
             EBin BOr (EBin BEq (EChain "name" []) (EVal (VStr """test""")))
                      (EBin BGt (EChain "n" []) (EVal (VNum "3"))) |}];
     q_from := [("method_declaration", "md"); ("class_declaration", "cd")];
     q_where :=
       Some
         (EBin BAnd
            (EBin BAnd
               (EParen
                  (EBin BOr
                     (EBin BEq (EChain "md" [MCall "getName" []]) (EVal (VStr """onCreate""")))
                     (ECall "isTest" [EChain "md" [MCall "getName" []]; EVal (VNum "3")])))
               (EUn UNot
                  (EParen
                     (EBin BIn (EChain "cd" [MCall "getVisibility" []])
                        (EList [VStr """public"""; VStr """protected"""])))))
            (EBin BNe
               (EChain "md"
                  [MCall "getBody" [];
                   MCall "size"
                     [EBin BAdd (EVal (VNum "1")) (EBin BMul (EVal (VNum "2")) (EVal (VNum "3")));
                      EUn UNeg (EChain "x" [])];
                   MVar "y"])
               (EBin BDiv (EUn UNeg (EVal (VNum "4"))) (EVal (VNum "2")))));
     q_select :=
       [SelChain (MVar "md") [MCall "getName" []]; SelVar "cd"; SelStr """literal""";
        SelChain (MCall "f" [EVal (VNum "1")]) []] |}.

Example ex_parse : option_map flatten_query (parse_query ex_src) = Some ex_flat.
Proof. vm_compute; reflexivity. Qed.

Example ex_parse_wf : option_map aquery_wfb (parse_query ex_src) = Some true.
Proof. vm_compute; reflexivity. Qed.

(* the same query with every optional white space removed *)
Definition ex_src_compact : bytes := "predicate isTest(string name,int n){name==""test""||n>3}FROM method_declaration AS md,class_declaration AS cd WHERE(md.getName()==""onCreate""||isTest(md.getName(),3))&&!(cd.getVisibility() in [""public"",""protected""])&&md.getBody().size(1+2*3,-x).y!=-4/2 SELECT md.getName(),cd,""literal"",f(1)".
Example ex_parse_compact : parse_query ex_src_compact = parse_query ex_src.
Proof. vm_compute; reflexivity. Qed.

Example ex_reprint :
  match parse_query ex_src with
  | Some q => parse_tokens (tokens_of_query q) = Some q
  | None => False
  end.
Proof. vm_compute; reflexivity. Qed.

Example ex_reject_chain_after_call :           (* predicate_invocation takes no chain *)
  parse_query "FROM a AS b WHERE f(x).y SELECT b" = None.
Proof. vm_compute; reflexivity. Qed.
Example ex_reject_in_without_space :            (* the operator is the 4-byte literal ' in ' *)
  parse_query "FROM a AS b WHERE x in[1] SELECT b" = None
  /\ lex_query "x in[1]" = Some [TIdent "x"; TInWord; TLBrack; TNumber "1"; TRBrack].
Proof. split; vm_compute; reflexivity. Qed.
Example ex_reject_trailing : parse_query "FROM a AS b SELECT b b" = None.
Proof. vm_compute; reflexivity. Qed.
Example ex_reject_empty_select : parse_query "FROM a AS b WHERE x SELECT" = None.
Proof. vm_compute; reflexivity. Qed.
Example ex_reject_keyword_ident : parse_query "FROM a AS SELECT SELECT b" = None.
Proof. vm_compute; reflexivity. Qed.
Example ex_accept_select_chain_after_call :
  option_map flatten_query (parse_query "FROM a AS b SELECT f(x).y, b.c") =
  Some {| q_preds := []; q_from := [("a", "b")]; q_where := None;
          q_select := [SelChain (MCall "f" [EChain "x" []]) [MVar "y"];
                       SelChain (MVar "b") [MVar "c"]] |}.
Proof. vm_compute; reflexivity. Qed.
