(* Facts about the evaluator model (Engine/Eval.v).  Association lists.  The value of a unary or binary
   expression depends on the values of its operands only (the congruences).  ! && || are one operation
   [on_bool] on results; it preserves [refines] (agreement wherever the right-hand side is inside the
   fragment), and on truth values [tv] the three are Kleene's left-to-right connectives.  The 64-bit range: every integer value the model yields (literals, +, -, *, unary
   minus) lies in [-2^63, 2^63); where the true result would not, the model answers OutOfFragment instead of a
   number expr-lang would not produce (Go ints wrap around silently). *)
From CPF Require Import Base.BytesFacts Engine.Eval.

Lemma lookup_nil {V} x : @lookup V x [] = None.
Proof. reflexivity. Qed.
Lemma lookup_cons {V} x k (v : V) m :
  lookup x ((k, v) :: m) = if bytes_eqb x k then Some v else lookup x m.
Proof. unfold lookup. cbn [find]. destruct (bytes_eqb x k); reflexivity. Qed.
Lemma lookup_app {V} x (m1 m2 : list (bytes * V)) :
  lookup x (m1 ++ m2) = match lookup x m1 with Some v => Some v | None => lookup x m2 end.
Proof.
  induction m1 as [|[k v] m1 IH]; cbn [app]; [reflexivity|].
  rewrite !lookup_cons. destruct (bytes_eqb x k); [reflexivity|exact IH].
Qed.
Lemma lookup_in {V} x (m : list (bytes * V)) v : lookup x m = Some v -> In (x, v) m.
Proof.
  induction m as [|[k w] m IH]; rewrite ?lookup_cons; [discriminate|].
  destruct (bytes_eqb x k) eqn:E; [|right; now apply IH].
  apply bytes_eqb_true in E. intros [= ->]. left. now subst.
Qed.
Lemma lookup_map {V W} (h : bytes -> V -> W) x (m : list (bytes * V)) :
  lookup x (map (fun '(k, v) => (k, h k v)) m) = option_map (h x) (lookup x m).
Proof.
  induction m as [|[k v] m IH]; [reflexivity|]. cbn [map]. rewrite !lookup_cons.
  destruct (bytes_eqb x k) eqn:E; [|exact IH]. apply bytes_eqb_true in E. now subst.
Qed.
(* ! && || look at the value of the left operand first: a boolean decides how to go on, an error is passed on,
   any other value is a [wrong_operand].  [eval] and the specification's [seval] share this. *)
Definition on_bool (r : res) (k : bool -> res) : res :=
  match r with
  | Val (VB b) => k b
  | Val v => wrong_operand v
  | RunErr => RunErr | CompErr => CompErr | OutOfFragment => OutOfFragment
  end.
Definition r_not (r : res) : res := on_bool r (fun b => Val (VB (negb b))).
Definition r_and (r s : res) : res := on_bool r (fun b => if b then s else Val (VB false)).
Definition r_or (r s : res) : res := on_bool r (fun b => if b then Val (VB true) else s).

Lemma eval_not env a : eval env (XUn UNot a) = r_not (eval env a).
Proof. reflexivity. Qed.
Lemma eval_and env a b : eval env (XBin BAnd a b) = r_and (eval env a) (eval env b).
Proof. reflexivity. Qed.
Lemma eval_or env a b : eval env (XBin BOr a b) = r_or (eval env a) (eval env b).
Proof. reflexivity. Qed.

Lemma eval_XUn_congr env env' o a a' :
  eval env a = eval env' a' -> eval env (XUn o a) = eval env' (XUn o a').
Proof. intros H. destruct o; cbn [eval]; now rewrite H. Qed.
Lemma eval_XBin_congr env env' o a a' b b' :
  eval env a = eval env' a' -> eval env b = eval env' b' ->
  eval env (XBin o a b) = eval env' (XBin o a' b').
Proof. intros Ha Hb. destruct o; cbn [eval]; now rewrite Ha, Hb. Qed.

Definition refines (r r' : res) : Prop := r' <> OutOfFragment -> r = r'.

Lemma refines_eq r r' : r = r' -> refines r r'.
Proof. now intros -> _. Qed.
Lemma refines_oof r : refines r OutOfFragment.
Proof. intros []. reflexivity. Qed.
Lemma refines_on_bool r r' k k' :
  refines r r' -> (forall b, refines (k b) (k' b)) -> refines (on_bool r k) (on_bool r' k').
Proof.
  intros Hr Hk H. rewrite Hr by (intros ->; now apply H).
  destruct r' as [[| |b| | | | |]| | |]; try reflexivity. exact (Hk b H).
Qed.

Definition tv (r : res) : option bool := match r with Val (VB b) => Some b | _ => None end.

Lemma tv_on_bool r k : tv (on_bool r k) = match tv r with Some b => tv (k b) | None => None end.
Proof. destruct r as [[| |b| | | | |]| | |]; reflexivity. Qed.
Lemma tv_not r : tv (r_not r) = option_map negb (tv r).
Proof. unfold r_not. rewrite tv_on_bool. now destruct (tv r). Qed.
Lemma tv_and r s : tv (r_and r s) = match tv r with Some true => tv s | o => o end.
Proof. unfold r_and. rewrite tv_on_bool. now destruct (tv r) as [[]|]. Qed.
Lemma tv_or r s : tv (r_or r s) = match tv r with Some false => tv s | o => o end.
Proof. unfold r_or. rewrite tv_on_bool. now destruct (tv r) as [[]|]. Qed.

Lemma literal_range v z : literal v = Val (VI z) -> in_int64 z = true.
Proof.
  destruct v as [tok|tok]; cbn [literal].
  - destruct (string_literal tok); discriminate.
  - unfold int_literal. destruct tok as [|c r]; [discriminate|].
    destruct (int_literal_aux (c :: r) 0) as [z'|]; [|discriminate].
    destruct (in_int64 z') eqn:E; [|discriminate]. intros [= <-]. exact E.
Qed.

Lemma arith_range f a b z : arith f a b = Val (VI z) -> in_int64 z = true.
Proof.
  unfold arith. destruct a, b; try (destruct (plain _ && plain _); discriminate).
  destruct (in_int64 (f z0 z1)) eqn:E; [|discriminate]. intros [= <-]. exact E.
Qed.

Ltac by_cases :=
  repeat (match goal with
          | |- (if ?c then _ else _) <> _ => destruct c
          | |- match ?x with _ => _ end <> _ => destruct x
          end; try discriminate).

Lemma field_val_no_int path n z : field_val path n <> Val (VI z).
Proof. unfold field_val, strs. by_cases. Qed.

Lemma member_no_int k n f z : member_of_env k n f <> Val (VI z).
Proof. unfold member_of_env. by_cases. Qed.

Lemma call_no_int k n f z : call_accessor k n f <> Val (VI z).
Proof. unfold call_accessor. by_cases. apply field_val_no_int. Qed.

Lemma cmp_lt_no_int a b z : cmp_lt a b <> Val (VI z).
Proof. unfold cmp_lt. by_cases. Qed.

Lemma wrong_operand_no_val v w : wrong_operand v <> Val w.
Proof. unfold wrong_operand. by_cases. Qed.

Lemma neg_result_int (r : res) z :
  (match r with Val (VB x) => Val (VB (negb x)) | r' => r' end) = Val (VI z) -> r = Val (VI z).
Proof. destruct r as [v| | |]; try discriminate. destruct v; try discriminate; auto. Qed.

Lemma on_bool_int r k z : on_bool r k = Val (VI z) -> exists b, k b = Val (VI z).
Proof. destruct r as [[| |b| | | | |]| | |]; try discriminate. intros H. now exists b. Qed.

Lemma binop_range o a b z : binop_val o a b = Val (VI z) -> in_int64 z = true.
Proof.
  destruct o; cbn [binop_val]; try discriminate; try apply arith_range.
  1, 2: destruct (scalar a && scalar b); discriminate.
  1, 2: intros H; now apply cmp_lt_no_int in H.
  1, 2: destruct (cmp_lt _ _) as [[]| | |] eqn:E; try discriminate; now apply cmp_lt_no_int in E.
  - destruct b; try (destruct (scalar a && scalar _)); try (destruct (scalar a)); discriminate.
  - destruct a, b; try apply arith_range. discriminate.
Qed.

Theorem eval_int_range : forall env e z, eval env e = Val (VI z) -> in_int64 z = true.
Proof.
  intros env e. induction e as [v|vs|x|a IHa f|a IHa args|a IHa|u a IHa|o a IHa b IHb]; intros z.
  - apply literal_range.
  - cbn [eval]. destruct (literals vs); discriminate.
  - cbn [eval]. destruct (lookup x env) as [[k n]|]; [discriminate|]. destruct (expr_builtin x); discriminate.
  - cbn [eval]. destruct (eval env a) as [[]| | |]; try discriminate. intros H. now apply member_no_int in H.
  - cbn [eval]. destruct args as [|a0 args].
    + destruct (eval env a) as [[]| | |]; try discriminate; try (destruct (scalar _); discriminate).
      intros H. now apply call_no_int in H.
    + destruct a; try discriminate. destruct (eval env (XVar x)); discriminate.
  - apply IHa.
  - destruct u; [rewrite eval_not; intros H; apply on_bool_int in H as [b H]; discriminate H|]. cbn [eval].
    destruct (eval env a) as [[]| | |]; try discriminate; try (intros H; now apply wrong_operand_no_val in H).
    destruct (in_int64 (- z0)) eqn:E; [|discriminate]. intros [= <-]. exact E.
  - destruct o;
      try (cbn [eval]; destruct (eval env a) as [va| | |]; try discriminate;
           destruct (eval env b) as [vb| | |]; try discriminate; apply binop_range).
    + rewrite eval_or. intros H. apply on_bool_int in H as [[] H]; [discriminate H|now apply IHb].
    + rewrite eval_and. intros H. apply on_bool_int in H as [[] H]; [now apply IHb|discriminate H].
Qed.
Print Assumptions eval_int_range.
