(* The two renderings of an answer (Engine/Render.v) show the same locations in the same order: the JSON
   document decodes to a structure that lists them, and the text report is a concatenation of blocks, one per
   reported entity, each starting with the header of its location.  The line numbers the text report prints
   beside a snippet are those of the scanned file. *)
From Coq Require Import Lia.
From CPF Require Import Base.BytesFacts Base.JsonFacts Scan.BuildFacts Engine.Render.
Open Scope bs_scope.

Lemma all_some_map_some {A B} (f : A -> B) (l : list A) : all_some (map (fun x => Some (f x)) l) = Some (map f l).
Proof. induction l as [|x l IH]; cbn [map all_some]; [reflexivity|]. now rewrite IH. Qed.

Lemma json_location_entity e : json_location (json_entity e) = Some (location e).
Proof. unfold json_location, json_entity, json_field, location. cbn. now rewrite N2Z.id. Qed.

Theorem json_locations_answer rs rows : json_locations (json_answer rs rows) = Some (locations rs).
Proof.
  unfold json_locations, json_answer, json_field, locations. cbn. rewrite map_map.
  rewrite (map_ext _ _ json_location_entity). apply all_some_map_some.
Qed.

Theorem render_json_decodes : forall rs rows b jr,
  render_json rs rows = Some b -> json_rows rows = Some jr ->
  wf_json (json_answer rs jr) = true ->
  decode b = Some (json_answer rs jr) /\ json_locations (json_answer rs jr) = Some (locations rs).
Proof.
  intros rs rows b jr H Hr Hwf. unfold render_json in H. rewrite Hr in H. injection H as <-.
  split; [now apply decode_encode|apply json_locations_answer].
Qed.

Lemma numbered_from_nth : forall lines n i l,
  nth_error lines i = Some l -> nth_error (numbered_from n lines) i = Some (numbered (n + N.of_nat i) l).
Proof.
  induction lines as [|x r IH]; intros n [|i] l H; try discriminate H; cbn [nth_error numbered_from] in *.
  - injection H as ->. now rewrite N.add_0_r.
  - rewrite (IH _ _ _ H). now replace (n + 1 + N.of_nat i)%N with (n + N.of_nat (S i))%N by lia.
Qed.

Lemma numbered_from_length : forall lines n, length (numbered_from n lines) = length lines.
Proof. induction lines; intros; cbn; [reflexivity|]. rewrite IHlines. reflexivity. Qed.

Theorem text_answer_app : forall rs1 rows1 rs2 rows2,
  length rs1 = length rows1 ->
  text_answer (rs1 ++ rs2) (rows1 ++ rows2) = text_answer rs1 rows1 ++ text_answer rs2 rows2.
Proof.
  induction rs1 as [|t rs1 IH]; intros [|r rows1] rs2 rows2 H; try discriminate H; [reflexivity|].
  cbn [text_answer app]. rewrite <- app_assoc. f_equal. apply IH. now injection H.
Qed.

(* text mode numbers real file lines (C04): the i-th snippet line is printed next to the number [line + i], and is
   (part of) that line of the scanned file *)
Theorem text_numbering : forall path src t g k e i s_i,
  cst_wfb src t = true -> build_file path src t = Ok g -> In (k, e) (g_nodes g) ->
  nth_error (split_on Bytes.nl (n_snippet e)) i = Some s_i ->
  nth_error (numbered_lines e) i = Some (numbered (n_line e + N.of_nat i) s_i)
  /\ exists L a b,
       nth_error (split_on Bytes.nl src) (N.to_nat (n_line e + N.of_nat i) - 1) = Some L
       /\ L = a ++ s_i ++ b
       /\ (0 < i -> a = [])
       /\ (i < N.to_nat (count_nl (n_snippet e)) -> b = []).
Proof.
  intros path src t g k e i s_i Hwf Hb Hin Hn.
  split; [now apply numbered_from_nth|].
  destruct (build_file_location path src t g k e Hwf Hb Hin) as [_ [pre [post [Hsrc Hline]]]].
  destruct (snippet_lines pre (n_snippet e) post i s_i Hn) as [L [a [b [HL [Hab [Ha Hb']]]]]].
  exists L, a, b. repeat split; try assumption.
  rewrite Hsrc, Hline.
  replace (N.to_nat (count_nl pre + 1 + N.of_nat i) - 1) with (N.to_nat (count_nl pre) + i) by lia.
  exact HL.
Qed.

(* both outputs show the same locations, in the same order (C15): every entity block of the text report starts with
   the header of its location *)
Definition header_of (loc : bytes * N) : bytes :=
  [x09] ++ "File: " ++ fst loc ++ ", Line: " ++ dec (snd loc) ++ " " ++ [Bytes.nl].

Lemma header_location : forall e, header e = header_of (location e).
Proof. reflexivity. Qed.

Definition starts_with_header (blk : bytes) (loc : bytes * N) : Prop := exists rest, blk = header_of loc ++ rest.

Lemma text_tuple_blocks row t : Forall2 starts_with_header (map (text_entity row) t) (map location t).
Proof. induction t as [|e t IH]; cbn [map]; constructor; [now eexists|exact IH]. Qed.

Theorem text_answer_blocks : forall rs tr, length rs = length tr ->
  exists blocks, text_answer rs tr = concat blocks /\ Forall2 starts_with_header blocks (locations rs).
Proof.
  induction rs as [|t rs IH]; intros [|r tr] H; cbn in *; try discriminate.
  - exists []. split; [reflexivity|constructor].
  - destruct (IH tr) as [bl [E F]]; [lia|].
    exists (map (text_entity r) t ++ bl). split.
    + rewrite concat_app, <- E. reflexivity.
    + unfold locations in *. cbn [concat]. rewrite map_app. apply Forall2_app; [apply text_tuple_blocks|exact F].
Qed.
