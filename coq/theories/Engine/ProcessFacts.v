(* Facts about processQuery and the console: layout, histories, chunking. *)
From CPF Require Import Lang.ParserFacts Engine.Process.
From Coq Require Import Lia.
Open Scope bs_scope.

(* C14: the answer depends only on the token sequence *)
Theorem process_layout toks lay1 lay2 g :
  forallb tok_wfb toks = true -> separable toks lay1 = true -> separable toks lay2 = true ->
  process_query (render toks lay1) g = process_query (render toks lay2) g.
Proof.
  intros Hwf H1 H2. unfold process_query.
  rewrite (parse_layout_irrelevant toks lay1 lay2 Hwf H1 H2). reflexivity.
Qed.

Theorem process_rendered q lay g :
  aquery_wfb q = true -> separable (tokens_of_query q) lay = true ->
  process_query (render (tokens_of_query q) lay) g =
  Answer {| a_results := results (flatten_query q) g;
            a_rows := List.map (row (flatten_query q)) (results (flatten_query q) g) |}.
Proof. intros Hq Hs. unfold process_query. rewrite (C11_roundtrip q lay Hq Hs). reflexivity. Qed.

(* C16: a session never changes the graph, so every answer is the stand-alone answer *)
Definition run_history (g : list node) (hist : list bytes) : list node :=
  fold_left (fun g' s => fst (step g' s)) hist g.

Theorem history_graph g hist : run_history g hist = g.
Proof. unfold run_history. induction hist as [|s h IH]; [reflexivity|]. cbn [fold_left step fst]. exact IH. Qed.

Theorem history_answer g hist s :
  snd (step (run_history g hist) s) = snd (step g s).
Proof. rewrite history_graph. reflexivity. Qed.

Lemma take_line_app s t :
  take_line (s ++ t) =
  match take_line s with
  | Some (l, r) => Some (l, r ++ t)
  | None => match take_line t with Some (l, r) => Some (s ++ l, r) | None => None end
  end.
Proof.
  induction s as [|c s IH]; cbn [take_line app]; [now destruct (take_line t) as [[]|]|].
  destruct (beqb c nl); [reflexivity|]. rewrite IH.
  destruct (take_line s) as [[]|]; [reflexivity|]. now destruct (take_line t) as [[]|].
Qed.

Lemma take_line_none_app s t : take_line s = None ->
  take_line (s ++ t) = match take_line t with Some (l, r) => Some (s ++ l, r) | None => None end.
Proof. intros H. now rewrite take_line_app, H. Qed.

Lemma read_line_concat : forall chunks buf,
  take_line (buf ++ concat chunks) =
  match read_line buf chunks with
  | Some (l, buf', chunks') => Some (l, buf' ++ concat chunks')
  | None => None
  end.
Proof.
  induction chunks as [|c cs IH]; intro buf; cbn [read_line concat].
  - rewrite app_nil_r. destruct (take_line buf) as [[l r]|]; now rewrite ?app_nil_r.
  - destruct (take_line buf) as [[l r]|] eqn:E.
    + now rewrite take_line_app, E.
    + now rewrite app_assoc, IH.
Qed.

Lemma take_line_length s l r : take_line s = Some (l, r) -> length r < length s.
Proof.
  revert l r. induction s as [|c s IH]; intros l r H; [discriminate|]. cbn [take_line] in H.
  destruct (beqb c nl); [injection H as _ <-; cbn; lia|].
  destruct (take_line s) as [[l' r']|]; [|discriminate]. injection H as _ <-.
  specialize (IH l' r' eq_refl). cbn [length]. lia.
Qed.

Theorem console_chunking g : forall fuel buf chunks,
  length (buf ++ concat chunks) < fuel ->
  console fuel g buf chunks = console fuel g (buf ++ concat chunks) [].
Proof.
  induction fuel as [|f IH]; intros buf chunks Hlen; [lia|].
  cbn [console read_line]. rewrite read_line_concat.
  destruct (read_line buf chunks) as [[[l b'] c']|] eqn:E; [|reflexivity].
  destruct (has_prefix ":quit" l); [reflexivity|].
  rewrite (IH b' c'); [reflexivity|].
  pose proof (read_line_concat chunks buf) as H. rewrite E in H. apply take_line_length in H. lia.
Qed.

(* the console answers exactly the complete lines of its input, whatever the chunking *)
Corollary console_session_chunking g chunks :
  console_session g chunks = console_session g [concat chunks].
Proof.
  unfold console_session. cbn [concat]. rewrite app_nil_r.
  rewrite (console_chunking g _ [] chunks) by (cbn [app]; lia).
  rewrite (console_chunking g _ [] [concat chunks]) by (cbn [app concat]; rewrite app_nil_r; lia).
  cbn [app concat]. rewrite app_nil_r. reflexivity.
Qed.
