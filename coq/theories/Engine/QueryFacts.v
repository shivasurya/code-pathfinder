(* Facts about the query pipeline model of Engine/Query.v, with the notions they are stated in (well-formed
   queries, the specification value [sv] of a condition, the printed form [xprint] of an expansion).
   The result set is the filtered cartesian product of the FROM kinds (C02).  Expansion by substitution
   computes what the specification means by binding formals (C01, C13): [R] relates a substitution to the
   bindings, and the value of the expansion [refines] the specification's.  The connectives act on result sets
   as set operations (C12) because they act on truth values [tv] as Kleene's do.  The text ExpandedCondition
   builds is the print of the expanded AST: the two have the same [flat]. *)
From Coq Require Import Lia.
From CPF Require Import Base.ListFacts Base.BytesFacts Engine.EvalFacts Engine.Query.
Open Scope bs_scope.

Theorem product_in : forall (sets : list (list node)) (t : list node),
  In t (product sets) <-> Forall2 (fun x s => In x s) t sets.
Proof.
  induction sets as [|s rest IH]; intros t; cbn [product].
  - split.
    + intros [<-|[]]. constructor.
    + intros H. inversion H. now left.
  - rewrite in_flat_map. split.
    + intros [t' [Ht' Hin]]. apply in_map_iff in Hin as [x [<- Hx]].
      constructor; [exact Hx|]. now apply IH.
    + intros H. inversion H as [|x s' t' rest' Hx Hrest]; subst.
      exists t'. split; [now apply IH|]. now apply (in_map (fun x => x :: t')).
Qed.
Print Assumptions product_in.

Theorem product_nodup (sets : list (list node)) :
  Forall (@NoDup node) sets -> NoDup (product sets).
Proof.
  induction sets as [|s rest IH]; intros H; cbn [product].
  - constructor; [intros []|constructor].
  - inversion H as [|? ? Hs Hrest]; subst. apply NoDup_flat_map.
    + now apply IH.
    + intros t _. apply FinFun.Injective_map_NoDup; [|exact Hs]. intros x y E. now injection E.
    + intros t t' b _ _ Hb Hb'.
      apply in_map_iff in Hb as [x [<- _]]. apply in_map_iff in Hb' as [y [E _]]. now injection E.
Qed.
Print Assumptions product_nodup.

Theorem product_length (sets : list (list node)) :
  length (product sets) = fold_right (fun s acc => length s * acc) 1 sets.
Proof.
  induction sets as [|s rest IH]; cbn [product fold_right]; [reflexivity|].
  rewrite <- IH. generalize (product rest) as l. intros l.
  induction l as [|t l IHl]; cbn [flat_map length]; [lia|].
  rewrite app_length, map_length, IHl. lia.
Qed.
Print Assumptions product_length.

Theorem results_iff q g t :
  In t (results q g) <-> In t (candidates q g) /\ accepted q t = Accept.
Proof. unfold results. rewrite filter_In. destruct (accepted q t); intuition discriminate. Qed.

Lemma nodes_of_kind_in g k n : In n (nodes_of_kind g k) <-> n_type n = k /\ In n g.
Proof.
  unfold nodes_of_kind. rewrite filter_In, bytes_eqb_true. tauto.
Qed.

Theorem candidates_iff q g t :
  In t (candidates q g) <-> Forall2 (fun n ka => n_type n = fst ka /\ In n g) t (q_from q).
Proof.
  unfold candidates. rewrite product_in. apply Forall2_map_r. intros n [k a]. apply nodes_of_kind_in.
Qed.

Corollary candidates_length q g t : In t (candidates q g) -> length t = length (q_from q).
Proof. intros H. now apply candidates_iff, Forall2_len in H. Qed.

Theorem candidates_nodup q g : NoDup g -> NoDup (candidates q g).
Proof.
  intros Hg. unfold candidates. apply product_nodup. apply Forall_forall.
  intros s Hs. apply in_map_iff in Hs as [[k a] [<- _]]. now apply NoDup_filter.
Qed.

Theorem results_nodup q g : NoDup g -> NoDup (results q g).
Proof. intros Hg. unfold results. apply NoDup_filter. now apply candidates_nodup. Qed.
Print Assumptions results_nodup.

Theorem results_no_where q g : q_where q = None -> results q g = candidates q g.
Proof.
  intros Hw. unfold results. apply (filter_const _ true). intros t _.
  unfold accepted, condition. rewrite Hw. reflexivity.
Qed.
Print Assumptions results_no_where.

Corollary candidates_count q g :
  length (candidates q g)
  = fold_right (fun '(k, _) acc => length (nodes_of_kind g k) * acc) 1 (q_from q).
Proof.
  unfold candidates. rewrite product_length.
  induction (q_from q) as [|[k a] l IH]; cbn [map fold_right]; [reflexivity|]. now rewrite IH.
Qed.

(* induction over expr that reaches the arguments of the method calls in a chain (expr is nested through
   list and emov, where the generated principle stops) *)
Section ExprInd.
  Variable P : expr -> Prop.
  Definition Pmov (m : emov) : Prop :=
    match m with MVar _ => True | MCall _ args => Forall P args end.
  Hypothesis HVal : forall v, P (EVal v).
  Hypothesis HList : forall vs, P (EList vs).
  Hypothesis HChain : forall x ms, Forall Pmov ms -> P (EChain x ms).
  Hypothesis HCall : forall f args, Forall P args -> P (ECall f args).
  Hypothesis HParen : forall a, P a -> P (EParen a).
  Hypothesis HUn : forall o a, P a -> P (EUn o a).
  Hypothesis HBin : forall o a b, P a -> P b -> P (EBin o a b).
  Fixpoint expr_ind' (e : expr) : P e :=
    let all := fix all (l : list expr) : Forall P l :=
                 match l with [] => Forall_nil P | a :: r => Forall_cons a (expr_ind' a) (all r) end in
    match e with
    | EVal v => HVal v
    | EList vs => HList vs
    | EChain x ms =>
        HChain x ms
          ((fix moves (ms : list emov) : Forall Pmov ms :=
              match ms with
              | [] => Forall_nil Pmov
              | m :: r => Forall_cons m (match m return Pmov m with MVar _ => I | MCall _ args => all args end)
                            (moves r)
              end) ms)
    | ECall f args => HCall f args (all args)
    | EParen a => HParen a (expr_ind' a)
    | EUn o a => HUn o a (expr_ind' a)
    | EBin o a b => HBin o a b (expr_ind' a) (expr_ind' b)
    end.
End ExprInd.

(* [inline], [seval] and [emit] recurse on the fuel outside and on the expression inside: while the fuel is a
   variable they do not unfold by computation.  One step of each, as an equation. *)
Definition chain_of (g : expr -> xexpr) : list emov -> xexpr -> xexpr :=
  fix chain (ms : list emov) (acc : xexpr) {struct ms} : xexpr :=
    match ms with
    | [] => acc
    | MVar f :: r => chain r (XMember acc f)
    | MCall f args :: r => chain r (XCall (XMember acc f) (List.map g args))
    end.

Lemma inline_eq d decls active sub e :
  inline d decls active sub e =
  let go := inline d decls active sub in
  match e with
  | EVal v => XVal v
  | EList vs => XList vs
  | EChain x ms => chain_of go ms (head_of sub x)
  | ECall f args =>
      let key := call_key f (length args) in
      let plain := XCall (head_of sub f) (map go args) in
      match d with
      | S d' =>
          if is_active key active then plain else
          match find_decl decls f (length args) with
          | Some decl =>
              XParen (inline d' decls (key :: active)
                        (combine (map snd (pd_params decl)) (map XParen (map go args))) (pd_body decl))
          | None => plain
          end
      | O => plain
      end
  | EParen a => XParen (go a)
  | EUn o a => XUn o (go a)
  | EBin o a b => XBin o (go a) (go b)
  end.
Proof. destruct d, e; reflexivity. Qed.

Lemma seval_eq d decls active env0 fe e :
  seval d decls active env0 fe e =
  let go := seval d decls active env0 fe in
  match e with
  | EParen a => go a
  | EUn UNot a => r_not (go a)
  | EBin BAnd a b => r_and (go a) (go b)
  | EBin BOr a b => r_or (go a) (go b)
  | ECall f args =>
      match d with
      | S d' =>
          if is_active (call_key f (length args)) active then OutOfFragment else
          match find_decl decls f (length args), all_some (map (arg_bind env0 fe) args) with
          | Some decl, Some bs =>
              seval d' decls (call_key f (length args) :: active) env0
                    (combine (map snd (pd_params decl)) bs) (pd_body decl)
          | _, _ => OutOfFragment
          end
      | O => OutOfFragment
      end
  | _ => atom_eval env0 fe e
  end.
Proof. destruct d, e as [| | | | |[]|[]]; reflexivity. Qed.

Lemma atom_eval_nil env0 e : atom_eval env0 [] e = eval env0 (of_expr e).
Proof. reflexivity. Qed.

Fixpoint call_free (e : expr) : bool :=
  match e with
  | EVal _ | EList _ => true
  | EChain _ ms =>
      forallb (fun m => match m with MVar _ => true | MCall _ args => forallb call_free args end) ms
  | ECall _ _ => false
  | EParen a | EUn _ a => call_free a
  | EBin _ a b => call_free a && call_free b
  end.

(* a boolean combination of atoms (call-free expressions) and predicate calls *)
Fixpoint skeleton (e : expr) : bool :=
  match e with
  | EParen a | EUn UNot a => skeleton a
  | EBin BAnd a b | EBin BOr a b => skeleton a && skeleton b
  | ECall _ _ => true
  | _ => call_free e
  end.

Lemma call_free_skeleton e : call_free e = true -> skeleton e = true.
Proof.
  induction e as [v|vs|x ms|f args|a IHa|o a IHa|o a IHa b IHb]; cbn [call_free skeleton]; auto.
  - destruct o; auto.
  - intros H. destruct o; auto; apply andb_prop in H as [Ha Hb]; rewrite IHa, IHb; auto.
Qed.

(* the implementation's substitution [sub] over the FROM environment [env0] represents the
   formals [fe] of the specification: the same names are bound, and the substituted expression
   evaluates (over env0) to what the formal is bound to -- the entity's accessor table, or the
   value of the literal *)
Definition R (env0 : tenv) (sub : subst) (fe : fenv) : Prop :=
  forall x,
    (forall a, lookup x sub = Some a ->
               exists b, lookup x fe = Some b /\ eval env0 a = bind_res b)
    /\ (lookup x sub = None -> lookup x fe = None).

Lemma R_nil env0 : R env0 [] [].
Proof. intros x. split; [intros a H; discriminate H|reflexivity]. Qed.

Lemma R_call env0 (params : list bytes) (xs : list xexpr) (bs : list bind) :
  Forall2 (fun a b => eval env0 a = bind_res b) xs bs ->
  R env0 (combine params xs) (combine params bs).
Proof.
  intros HF x. revert params.
  induction HF as [|a b xs bs Hab _ IH]; intros [|p ps]; cbn [combine]; try apply R_nil.
  rewrite !lookup_cons. destruct (bytes_eqb x p); [|apply IH].
  split; [intros ? [= <-]; now exists b|discriminate].
Qed.

(* a call with arguments never looks at them; a call without arguments looks at the callee *)
Lemma eval_chain_congr env env' g g' : forall ms acc acc',
  eval env acc = eval env' acc' ->
  eval env (chain_of g ms acc) = eval env' (chain_of g' ms acc').
Proof.
  induction ms as [|[f|f args] r IH]; intros acc acc' H; cbn [chain_of]; [exact H|apply IH..].
  - cbn [eval]. now rewrite H.
  - destruct args; cbn [map eval]; [now rewrite H|reflexivity].
Qed.

(* a call-free expression is expanded by replacing names only: its value depends on the values of the
   substituted names, whatever the declarations *)
Lemma inline_cf_congr env env' d decls active sub d' decls' active' sub' e :
  call_free e = true -> (forall x, eval env (head_of sub x) = eval env' (head_of sub' x)) ->
  eval env (inline d decls active sub e) = eval env' (inline d' decls' active' sub' e).
Proof.
  intros Hcf Hx.
  induction e as [v|vs|x ms|f args|a IHa|o a IHa|o a IHa b IHb]; cbn [call_free] in Hcf;
    rewrite (inline_eq d), (inline_eq d').
  - reflexivity.
  - reflexivity.
  - apply eval_chain_congr, Hx.
  - discriminate Hcf.
  - now apply IHa.
  - now apply eval_XUn_congr, IHa.
  - apply andb_prop in Hcf as [Ha Hb]. apply eval_XBin_congr; auto.
Qed.

Definition name_res (env0 : tenv) (fe : fenv) (x : bytes) : res :=
  match flookup env0 fe x with Some b => bind_res b | None => if expr_builtin x then OutOfFragment else CompErr end.

(* the first formal of a name decides: an entity is found by [ents]; a value hides later formals of
   that name in [fe] but not in [ents] *)
Lemma lookup_ents fe x :
  match lookup x fe with
  | Some (BEnt kd n) => lookup x (ents fe) = Some (kd, n)
  | Some (BVal _) => True
  | None => lookup x (ents fe) = None
  end.
Proof.
  induction fe as [|[k [kd n|v]] fe IH]; cbn [ents]; rewrite ?lookup_cons; [reflexivity| |];
    destruct (bytes_eqb x k); auto.
Qed.

(* [atom_eval] reads a name as [flookup] does: the first formal of that name decides, then the
   FROM aliases *)
Lemma spec_head env0 fe x :
  eval (ents fe ++ env0) (head_of (vsub fe) x) = name_res env0 fe x.
Proof.
  unfold name_res, flookup, head_of, vsub.
  rewrite lookup_map.
  pose proof (lookup_ents fe x) as H.
  destruct (lookup x fe) as [[kd n|v]|]; cbn [option_map eval bind_res]; rewrite ?lookup_app, ?H; try reflexivity.
  destruct (lookup x env0) as [[kd n]|]; reflexivity.
Qed.

Lemma eval_head env0 sub fe x : R env0 sub fe -> eval env0 (head_of sub x) = name_res env0 fe x.
Proof.
  intros HR. destruct (HR x) as [HS HN]. unfold head_of, name_res, flookup.
  destruct (lookup x sub) as [a|].
  - destruct (HS a eq_refl) as [b [-> He]]. exact He.
  - rewrite (HN eq_refl). cbn [eval]. destruct (lookup x env0) as [[k n]|]; reflexivity.
Qed.

Lemma inline_atom d decls active env0 sub fe e :
  call_free e = true -> R env0 sub fe ->
  eval env0 (inline d decls active sub e) = atom_eval env0 fe e.
Proof.
  intros Hcf HR. apply inline_cf_congr; [exact Hcf|]. intros x. rewrite spec_head. now apply eval_head.
Qed.

(* conservative over the entity-only reading: when every formal is bound to an entity, an atom is
   the plain expression evaluated in the FROM environment extended by the formals *)
Definition all_entities (fe : fenv) : bool :=
  forallb (fun '(_, b) => match b with BEnt _ _ => true | BVal _ => false end) fe.

Lemma atom_eval_entities env0 fe e :
  call_free e = true -> all_entities fe = true ->
  atom_eval env0 fe e = eval (ents fe ++ env0) (of_expr e).
Proof.
  (* [vsub] puts every name bound to an entity in its own place *)
  intros Hcf Hfe. apply inline_cf_congr; [exact Hcf|]. intros x. f_equal.
  unfold head_of, vsub. rewrite lookup_map. destruct (lookup x fe) as [[kd n|v]|] eqn:E; try reflexivity.
  apply lookup_in in E. unfold all_entities in Hfe. rewrite forallb_forall in Hfe. discriminate (Hfe _ E).
Qed.

Lemma arg_bind_eval d decls active env0 sub fe : R env0 sub fe -> forall a b,
  arg_bind env0 fe a = Some b -> eval env0 (inline d decls active sub a) = bind_res b.
Proof.
  intros HR.
  induction a as [v|vs|x ms|f args|a IHa|o a IHa|o a IHa b' IHb]; intros b Ea; cbn [arg_bind] in Ea;
    try discriminate Ea; rewrite inline_eq.
  - now injection Ea as <-.
  - destruct ms as [|m ms]; [|discriminate Ea].
    cbn [chain_of]. rewrite (eval_head env0 sub fe x HR). unfold name_res. now rewrite Ea.
  - now apply IHa.
Qed.

Lemma args_binds d decls active env0 sub fe : R env0 sub fe -> forall args bs,
  all_some (map (arg_bind env0 fe) args) = Some bs ->
  Forall2 (fun a b => eval env0 a = bind_res b) (map XParen (map (inline d decls active sub) args)) bs.
Proof.
  intros HR. induction args as [|a args IH]; intros bs H; cbn [map all_some] in H |- *.
  - injection H as <-. constructor.
  - destruct (arg_bind env0 fe a) as [b|] eqn:Ea; [|discriminate H].
    destruct (all_some (map (arg_bind env0 fe) args)) as [bs'|]; [|discriminate H].
    injection H as <-. constructor; [|now apply IH]. now apply arg_bind_eval with (fe := fe).
Qed.

Lemma find_decl_in decls f n decl : find_decl decls f n = Some decl -> In decl decls.
Proof. unfold find_decl. intros H. now apply find_some in H as [H _]. Qed.

(* induction on an expression by the cases of [seval] and of [skeleton]: in the first, both fall through, to
   [atom_eval] and to [call_free] *)
Lemma skeleton_ind (P : expr -> Prop) :
  (forall e, skeleton e = call_free e ->
             (forall d decls active env0 fe, seval d decls active env0 fe e = atom_eval env0 fe e) -> P e) ->
  (forall f args, P (ECall f args)) ->
  (forall a, P a -> P (EParen a)) ->
  (forall a, P a -> P (EUn UNot a)) ->
  (forall a b, P a -> P b -> P (EBin BOr a b)) ->
  (forall a b, P a -> P b -> P (EBin BAnd a b)) ->
  forall e, P e.
Proof.
  intros Hatom Hcall Hparen Hnot Hor Hand.
  induction e as [| | | | |[]|[]]; auto; apply Hatom; try reflexivity; intros []; reflexivity.
Qed.

Theorem inline_refines decls env0 :
  (forall decl, In decl decls -> skeleton (pd_body decl) = true) ->
  forall d active e sub fe, skeleton e = true -> R env0 sub fe ->
  refines (eval env0 (inline d decls active sub e)) (seval d decls active env0 fe e).
Proof.
  (* by strong induction, so that the cases of [e], the same whatever the fuel, are gone through once; only a
     call uses the hypothesis, at the predecessor *)
  intros Hdecls. induction d as [d IHd] using lt_wf_ind. intros active e.
  induction e as [e Esk Eat|f args|a IHa|a IHa|a b IHa IHb|a b IHa IHb] using skeleton_ind; intros sub fe Hsk HR.
  { rewrite Eat. rewrite Esk in Hsk. now apply refines_eq, inline_atom. }
  all: rewrite seval_eq, inline_eq; cbv zeta iota; cbn [skeleton] in Hsk.
  - (* a call: both sides enter the body, under bindings that are related again *)
    destruct d as [|d']; [apply refines_oof|].
    destruct (is_active (call_key f (length args)) active); [apply refines_oof|].
    destruct (find_decl decls f (length args)) as [decl|] eqn:Ef; [|apply refines_oof].
    destruct (all_some (map (arg_bind env0 fe) args)) as [bs|] eqn:Ea; [|apply refines_oof].
    apply (IHd d' (le_n _)).
    + apply Hdecls. eapply find_decl_in, Ef.
    + apply R_call. now apply args_binds with (fe := fe).
  - now apply IHa.
  - rewrite eval_not. apply refines_on_bool; [now apply IHa|]. intros b. now apply refines_eq.
  - rewrite eval_or. apply andb_prop in Hsk as [Ha Hb]. apply refines_on_bool; [now apply IHa|].
    intros [|]; [now apply refines_eq|now apply IHb].
  - rewrite eval_and. apply andb_prop in Hsk as [Ha Hb]. apply refines_on_bool; [now apply IHa|].
    intros [|]; [now apply IHb|now apply refines_eq].
Qed.

Theorem inline_seval : forall d decls active env0,
  (forall decl, In decl decls -> skeleton (pd_body decl) = true) ->
  forall e sub env, skeleton e = true -> R env0 sub env ->
  forall r, seval d decls active env0 env e = r -> r <> OutOfFragment ->
  eval env0 (inline d decls active sub e) = r.
Proof.
  intros d decls active env0 Hdecls e sub env Hsk HR r <-.
  now apply inline_refines.  (* its conclusion [refines _ _] unfolds to the goal *)
Qed.
Print Assumptions inline_seval.

Definition wf_query (q : query) : bool :=
  match q_where q with Some e => skeleton e | None => true end
  && forallb (fun decl => skeleton (pd_body decl)) (q_preds q).

Definition sv (q : query) (t : list node) (e : expr) : res :=
  seval (fuel_of (q_preds q)) (q_preds q) [] (tuple_env q t) [] e.

Definition static_ok (q : query) (t : list node) : Prop :=
  forall c, condition q = Some c -> exists ty, static (tuple_env q t) c = SOk ty.

Theorem accepted_refines_spec : forall q t,
  wf_query q = true -> spec_accepted q t <> Unknown -> static_ok q t ->
  accepted q t = spec_accepted q t.
Proof.
  intros q t Hwf Hu Hn. unfold accepted, spec_accepted, static_ok, condition, wf_query in *.
  destruct (q_where q) as [e|]; [|reflexivity].
  apply andb_prop in Hwf as [Hsk Hd]. rewrite forallb_forall in Hd.
  unfold filter_verdict. destruct (Hn _ eq_refl) as [ty ->].
  (* the expanded condition has the specification's value, as that is inside the fragment *)
  rewrite (inline_refines (q_preds q) (tuple_env q t) Hd _ [] e [] [] Hsk (R_nil _)); [reflexivity|].
  intros E. rewrite E in Hu. now apply Hu.
Qed.
Print Assumptions accepted_refines_spec.

Theorem results_refine_spec q g :
  wf_query q = true ->
  (forall t, In t (candidates q g) -> spec_accepted q t <> Unknown /\ static_ok q t) ->
  results q g = spec_results q g.
Proof.
  intros Hwf H. unfold results, spec_results. apply filter_ext_in. intros t Ht.
  destruct (H t Ht) as [Hu Hn]. now rewrite accepted_refines_spec.
Qed.
Print Assumptions results_refine_spec.

Definition with_where (q : query) (w : option expr) : query :=
  {| q_preds := q_preds q; q_from := q_from q; q_where := w; q_select := q_select q |}.

Lemma candidates_with_where q w g : candidates (with_where q w) g = candidates q g.
Proof. reflexivity. Qed.
Lemma tuple_env_with_where q w t : tuple_env (with_where q w) t = tuple_env q t.
Proof. reflexivity. Qed.
Lemma sv_with_where q w t e : sv (with_where q w) t e = sv q t e.
Proof. reflexivity. Qed.

Definition total (q : query) (g : list node) (A : expr) : Prop :=
  forall t, In t (candidates q g) -> exists b, sv q t A = Val (VB b).

Definition spec_accepts (q : query) (t : list node) : bool :=
  match spec_accepted q t with Accept => true | _ => false end.

Lemma spec_results_filter q g : spec_results q g = filter (spec_accepts q) (candidates q g).
Proof. reflexivity. Qed.

Lemma spec_accepts_where q A t :
  spec_accepts (with_where q (Some A)) t = true <-> tv (sv q t A) = Some true.
Proof.
  unfold spec_accepts, spec_accepted. cbn [q_where with_where]. fold (sv (with_where q (Some A)) t A).
  rewrite sv_with_where. destruct (sv q t A) as [[| |[]| | | | |]| | |]; split; now intros H.
Qed.

Lemma spec_results_where q g A t :
  In t (spec_results (with_where q (Some A)) g) <-> In t (candidates q g) /\ tv (sv q t A) = Some true.
Proof. now rewrite spec_results_filter, filter_In, spec_accepts_where. Qed.

Lemma spec_results_none q g : spec_results (with_where q None) g = candidates q g.
Proof. unfold spec_results. apply (filter_const _ true). intros t _. reflexivity. Qed.

Lemma sv_paren q t A : sv q t (EParen A) = sv q t A.
Proof. apply seval_eq. Qed.
Lemma sv_not q t A : sv q t (EUn UNot A) = r_not (sv q t A).
Proof. apply seval_eq. Qed.
Lemma sv_and q t A B : sv q t (EBin BAnd A B) = r_and (sv q t A) (sv q t B).
Proof. apply seval_eq. Qed.
Lemma sv_or q t A B : sv q t (EBin BOr A B) = r_or (sv q t A) (sv q t B).
Proof. apply seval_eq. Qed.
#[local] Hint Rewrite sv_paren sv_not sv_and sv_or tv_not tv_and tv_or : tv.

Theorem spec_equiv_true q g A B :
  (forall t, In t (candidates q g) -> tv (sv q t A) = Some true <-> tv (sv q t B) = Some true) ->
  spec_results (with_where q (Some A)) g = spec_results (with_where q (Some B)) g.
Proof.
  intros H. rewrite !spec_results_filter. apply filter_ext_in. intros t Ht.
  apply eq_true_iff_eq. rewrite !spec_accepts_where. now apply H.
Qed.

Theorem spec_equiv q g A B :
  (forall t, In t (candidates q g) -> sv q t A = sv q t B) ->
  spec_results (with_where q (Some A)) g = spec_results (with_where q (Some B)) g.
Proof. intros H. apply spec_equiv_true. intros t Ht. now rewrite (H t Ht). Qed.
Print Assumptions spec_equiv.

Theorem spec_paren q g A :
  spec_results (with_where q (Some (EParen A))) g = spec_results (with_where q (Some A)) g.
Proof. apply spec_equiv. intros t _. apply sv_paren. Qed.
Print Assumptions spec_paren.

Theorem spec_and_filter q g A B :
  spec_results (with_where q (Some (EBin BAnd A B))) g
  = filter (spec_accepts (with_where q (Some B))) (spec_results (with_where q (Some A)) g).
Proof.
  rewrite !spec_results_filter, <- filter_andb. apply filter_ext. intros t. apply eq_true_iff_eq.
  rewrite andb_true_iff, !spec_accepts_where. autorewrite with tv.
  destruct (tv (sv q t A)) as [[]|]; intuition discriminate.
Qed.
Print Assumptions spec_and_filter.

Theorem spec_and q g A B t :
  In t (spec_results (with_where q (Some (EBin BAnd A B))) g) <->
  In t (spec_results (with_where q (Some A)) g) /\ In t (spec_results (with_where q (Some B)) g).
Proof. rewrite spec_and_filter, filter_In, spec_accepts_where, !spec_results_where. tauto. Qed.
Print Assumptions spec_and.

Theorem spec_or q g A B t :
  total q g A ->
  (In t (spec_results (with_where q (Some (EBin BOr A B))) g) <->
   In t (spec_results (with_where q (Some A)) g) \/ In t (spec_results (with_where q (Some B)) g)).
Proof.
  intros HA. rewrite !spec_results_where. autorewrite with tv. split.
  - intros [Hc H]. destruct (tv (sv q t A)) as [[]|]; auto.
  - intros [[Hc H]|[Hc H]]; split; auto; [now rewrite H|].
    destruct (HA t Hc) as [[] ->]; [reflexivity|exact H].
Qed.
Print Assumptions spec_or.

Theorem spec_not q g A t :
  total q g A ->
  (In t (spec_results (with_where q (Some (EUn UNot A))) g) <->
   In t (candidates (with_where q None) g) /\ ~ In t (spec_results (with_where q (Some A)) g)).
Proof.
  intros HA. rewrite !spec_results_where, candidates_with_where. autorewrite with tv.
  split; intros [Hc H]; (split; [exact Hc|]); destruct (HA t Hc) as [b Hb]; rewrite Hb in *; cbn [tv option_map] in *.
  - intros [_ [= ->]]. discriminate H.
  - destruct b; [|reflexivity]. now destruct H.
Qed.
Print Assumptions spec_not.

(* De Morgan and double negation hold of the truth values, hence unconditionally *)
Corollary spec_de_morgan_and q g A B :
  spec_results (with_where q (Some (EUn UNot (EBin BAnd A B)))) g
  = spec_results (with_where q (Some (EBin BOr (EUn UNot A) (EUn UNot B)))) g.
Proof. apply spec_equiv_true. intros t _. autorewrite with tv. destruct (tv (sv q t A)) as [[]|]; reflexivity. Qed.
Print Assumptions spec_de_morgan_and.

Corollary spec_de_morgan_or q g A B :
  spec_results (with_where q (Some (EUn UNot (EBin BOr A B)))) g
  = spec_results (with_where q (Some (EBin BAnd (EUn UNot A) (EUn UNot B)))) g.
Proof. apply spec_equiv_true. intros t _. autorewrite with tv. destruct (tv (sv q t A)) as [[]|]; reflexivity. Qed.
Print Assumptions spec_de_morgan_or.

(* unconditional: where A has no truth value neither has !!A, and neither is selected *)
Corollary spec_not_not q g A :
  spec_results (with_where q (Some (EUn UNot (EUn UNot A)))) g = spec_results (with_where q (Some A)) g.
Proof. apply spec_equiv_true. intros t _. autorewrite with tv. destruct (tv (sv q t A)) as [[]|]; reflexivity. Qed.
Print Assumptions spec_not_not.

Corollary spec_not_not_total q g A :
  total q g A ->
  spec_results (with_where q (Some (EUn UNot (EUn UNot A)))) g = spec_results (with_where q (Some A)) g.
Proof. intros _. apply spec_not_not. Qed.

Corollary spec_or_comm q g A B t :
  total q g A -> total q g B ->
  (In t (spec_results (with_where q (Some (EBin BOr A B))) g) <->
   In t (spec_results (with_where q (Some (EBin BOr B A))) g)).
Proof. intros HA HB. rewrite (spec_or q g A B t HA), (spec_or q g B A t HB). tauto. Qed.

Corollary spec_and_comm q g A B t :
  In t (spec_results (with_where q (Some (EBin BAnd A B))) g) <->
  In t (spec_results (with_where q (Some (EBin BAnd B A))) g).
Proof. rewrite !spec_and. tauto. Qed.

(* an xexpr as the space-separable pieces ExpandedCondition would write *)
Fixpoint xprint (e : xexpr) : list bytes :=
  match e with
  | XVal v => [value_text v]
  | XList vs => "[" :: sep_pieces "," (List.map (fun v => [value_text v]) vs) ++ ["]"]
  | XVar x => [x]
  | XMember a f => xprint a ++ ["."; f]
  | XCall a args => xprint a ++ "(" :: sep_pieces "," (List.map xprint args) ++ [")"]
  | XParen a => "(" :: xprint a ++ [")"]
  | XUn o a => unop_text o :: xprint a
  | XBin o a b => xprint a ++ binop_text o :: xprint b
  end.

(* a substituted argument is ONE piece of text in [emit]: the pieces of its expansion joined *)
Definition tsub_of (sub : subst) : tsubst :=
  List.map (fun '(x, a) => (x, join " " (xprint a))) sub.

Lemma xprint_nonempty e : xprint e <> [].
Proof.
  destruct e; cbn [xprint]; try discriminate;
    match goal with |- ?a ++ _ <> [] => destruct a; discriminate end.
Qed.

(* every piece preceded by a space: unlike [join " "] this distributes over ++, and two piece lists
   with the same [flat] read the same once joined *)
Definition flat (l : list bytes) : bytes := flat_map (cons x20) l.

Lemma flat_cons x l : flat (x :: l) = x20 :: x ++ flat l.
Proof. reflexivity. Qed.
Lemma flat_app l1 l2 : flat (l1 ++ l2) = flat l1 ++ flat l2.
Proof. apply flat_map_app. Qed.
Lemma flat_join l : flat l = match l with [] => [] | _ => x20 :: join " " l end.
Proof.
  induction l as [|x [|y r] IH]; [reflexivity|cbn; now rewrite app_nil_r|].
  rewrite flat_cons, IH. reflexivity.
Qed.
Lemma join_flat l : join " " l = tl (flat l).
Proof. rewrite flat_join. now destruct l. Qed.

Lemma join_paren l : l <> [] -> join " " ("(" :: l ++ [")"]) = "( " ++ join " " l ++ " )".
Proof.
  intros H. rewrite join_flat, flat_cons, flat_app, (flat_join l). destruct l; [now destruct H|reflexivity].
Qed.

Lemma sep_pieces_cons2 sep x y r :
  sep_pieces sep (x :: y :: r) = x ++ sep :: sep_pieces sep (y :: r).
Proof. reflexivity. Qed.

Lemma sep_flat {A} sep (f h : A -> list bytes) (l : list A) :
  Forall (fun a => flat (f a) = flat (h a)) l ->
  flat (sep_pieces sep (map f l)) = flat (sep_pieces sep (map h l)).
Proof.
  induction 1 as [|a l Ha Hl IH]; [reflexivity|].
  destruct Hl as [|b l Hb Hl]; [exact Ha|]. cbn [map] in *.
  now rewrite !sep_pieces_cons2, !flat_app, !flat_cons, Ha, IH.
Qed.

Lemma args_flat {A} (f h : A -> list bytes) (l : list A) :
  Forall (fun a => flat (f a) = flat (h a)) l ->
  flat ("(" :: sep_pieces "," (map f l) ++ [")"]) = flat ("(" :: sep_pieces "," (map h l) ++ [")"]).
Proof. intros H. now rewrite !flat_cons, !flat_app, (sep_flat _ _ _ _ H). Qed.

Lemma flat_call (h : list bytes) a c :
  flat (h ++ "(" :: a ++ ")" :: c) = flat h ++ flat ("(" :: a ++ [")"]) ++ flat c.
Proof. rewrite <- !flat_app. cbn [app]. now rewrite <- app_assoc. Qed.

Definition emit_chain (g : expr -> list bytes) : list emov -> list bytes :=
  fix chain (ms : list emov) {struct ms} : list bytes :=
    match ms with
    | [] => []
    | MVar f :: r => "." :: f :: chain r
    | MCall f args :: r => "." :: f :: "(" :: sep_pieces "," (List.map g args) ++ ")" :: chain r
    end.

Lemma emit_eq d decls active sub e :
  emit d decls active sub e =
  let go := emit d decls active sub in
  match e with
  | EVal v => [value_text v]
  | EList vs => "[" :: sep_pieces "," (map (fun v => [value_text v]) vs) ++ ["]"]
  | EChain x ms => head_text sub x :: emit_chain go ms
  | ECall f args =>
      let key := call_key f (length args) in
      match match d with
            | S d' =>
                if is_active key active then None else
                match find_decl decls f (length args) with
                | Some decl =>
                    Some ("(" :: emit d' decls (key :: active)
                                   (combine (map snd (pd_params decl))
                                            (map (fun a => "( " ++ join " " (go a) ++ " )") args))
                                   (pd_body decl) ++ [")"])
                | None => None
                end
            | O => None
            end
      with
      | Some p => p
      | None => head_text sub f :: "(" :: sep_pieces "," (map go args) ++ [")"]
      end
  | EParen a => "(" :: go a ++ [")"]
  | EUn o a => unop_text o :: go a
  | EBin o a b => go a ++ binop_text o :: go b
  end.
Proof. destruct d, e; reflexivity. Qed.

Lemma head_flat sub x l :
  flat (head_text (tsub_of sub) x :: l) = flat (xprint (head_of sub x)) ++ flat l.
Proof.
  unfold head_text, head_of, tsub_of. rewrite lookup_map.
  destruct (lookup x sub) as [a|]; [|exact (flat_app [x] l)]. cbn [option_map]. rewrite (flat_join (xprint a)).
  pose proof (xprint_nonempty a). now destruct (xprint a).
Qed.

Lemma tsub_of_combine (ps : list bytes) (xs : list xexpr) :
  tsub_of (combine ps xs) = combine ps (List.map (fun a => join " " (xprint a)) xs).
Proof.
  revert xs. induction ps as [|p ps IH]; intros [|a xs]; cbn [combine map tsub_of]; try reflexivity.
  f_equal. apply IH.
Qed.

(* what [inline] itself creates: every substituted expression is parenthesised, and its text
   is "( " ++ text ++ " )" *)
Lemma tsub_of_paren (sub : subst) :
  tsub_of (List.map (fun '(x, a) => (x, XParen a)) sub)
  = List.map (fun '(x, a) => (x, "( " ++ join " " (xprint a) ++ " )")) sub.
Proof.
  unfold tsub_of. rewrite map_map. apply map_ext. intros [x a]. f_equal.
  cbn [xprint]. apply join_paren, xprint_nonempty.
Qed.

Lemma chain_flat (g : expr -> list bytes) (g' : expr -> xexpr) ms :
  Forall (Pmov (fun e => flat (g e) = flat (xprint (g' e)))) ms -> forall acc,
  flat (xprint (chain_of g' ms acc)) = flat (xprint acc) ++ flat (emit_chain g ms).
Proof.
  induction 1 as [|[f|f args] r Hm _ IH]; intros acc; cbn [emit_chain chain_of].
  - now rewrite app_nil_r.
  - change ("." :: f :: ?c) with (["."; f] ++ c). rewrite IH. cbn [xprint]. now rewrite !flat_app, app_assoc.
  - change ("." :: f :: ?l) with (["."; f] ++ l). rewrite IH, flat_call. cbn [xprint].
    now rewrite map_map, !flat_app, <- !app_assoc, <- (args_flat _ _ _ Hm).
Qed.

Theorem emit_inline_flat : forall d decls active e sub,
  flat (emit d decls active (tsub_of sub) e) = flat (xprint (inline d decls active sub e)).
Proof.
  (* strong induction for the reason given in [inline_refines] *)
  induction d as [d IHd] using lt_wf_ind. intros decls active e sub.
  induction e as [v|vs|x ms Hms|f args Hargs|a IHa|o a IHa|o a b IHa IHb] using expr_ind';
    rewrite emit_eq, inline_eq; cbv zeta iota.
  - reflexivity.
  - reflexivity.
  - now rewrite head_flat, (chain_flat _ _ _ Hms).
  - destruct d as [|d']; [|destruct (is_active (call_key f (length args)) active);
                           [|destruct (find_decl decls f (length args)) as [decl|]]].
    (* not expanded: the call is printed as it stands *)
    1, 2, 4: cbn [xprint]; now rewrite head_flat, map_map, flat_app, <- (args_flat _ _ _ Hargs).
    (* the substitution for the body: the text of each parenthesised argument *)
    replace (combine _ (map _ args))
      with (tsub_of (combine (map snd (pd_params decl))
                       (map XParen (map (inline (S d') decls active sub) args)))).
    { cbn [xprint]. now rewrite !flat_cons, !flat_app, (IHd d' (le_n _)). }
    rewrite tsub_of_combine, !map_map. f_equal. apply map_ext_Forall.
    revert Hargs. apply Forall_impl. intros a Ha. cbn [xprint].
    rewrite join_paren by apply xprint_nonempty. now rewrite !join_flat, Ha.
  - cbn [xprint]. now rewrite !flat_cons, !flat_app, IHa.
  - cbn [xprint]. now rewrite !flat_cons, IHa.
  - cbn [xprint]. now rewrite !flat_app, !flat_cons, IHa, IHb.
Qed.

Theorem emit_inline : forall d decls active e tsub sub,
  tsub_of sub = tsub ->
  join " " (emit d decls active tsub e) = join " " (xprint (inline d decls active sub e)).
Proof. intros d decls active e tsub sub <-. now rewrite !join_flat, emit_inline_flat. Qed.
Print Assumptions emit_inline.

Corollary expanded_condition_inline q :
  expanded_condition q = match condition q with Some c => join " " (xprint c) | None => [] end.
Proof.
  unfold expanded_condition, condition. destruct (q_where q) as [e|]; [|reflexivity].
  now apply emit_inline.
Qed.
Print Assumptions expanded_condition_inline.

(* the hypotheses of the refinement and of the connective laws as boolean checks, to be run on a concrete
   query and graph *)
Definition refine_check (q : query) (g : list node) : bool :=
  forallb (fun t =>
             match spec_accepted q t with Unknown => false | _ => true end
             && match condition q with
                | Some c => match static (tuple_env q t) c with SOk _ => true | _ => false end
                | None => true
                end) (candidates q g).

Lemma refine_check_ok q g : refine_check q g = true ->
  forall t, In t (candidates q g) -> spec_accepted q t <> Unknown /\ static_ok q t.
Proof.
  unfold refine_check. rewrite forallb_forall. intros H t Ht.
  apply H in Ht. apply andb_prop in Ht as [H1 H2]. split.
  - intros E. rewrite E in H1. discriminate H1.
  - intros c Hc. rewrite Hc in H2. destruct (static (tuple_env q t) c) as [ty| |]; try discriminate H2.
    now exists ty.
Qed.

Definition total_check (q : query) (g : list node) (A : expr) : bool :=
  forallb (fun t => match sv q t A with Val (VB _) => true | _ => false end) (candidates q g).

Lemma total_check_ok q g A : total_check q g A = true -> total q g A.
Proof.
  unfold total_check, total. rewrite forallb_forall. intros H t Ht. apply H in Ht.
  destruct (sv q t A) as [[| |b| | | | |]| | |]; try discriminate Ht. now exists b.
Qed.

(* the hypotheses are satisfiable: a concrete query with nested predicates *)
Module Examples.
  Definition md (name : bytes) : node :=
    mk_node ("md:" ++ name) "method_declaration" name "void f() {}" 1 false "A.java" true.
  Definition cd (name : bytes) : node :=
    mk_node ("cd:" ++ name) "class_declaration" name "class C {}" 1 false "A.java" true.
  Definition g : list node := [md "foo"; cd "C"; md "bar"; cd "D"].

  (* predicate named(method_declaration m, class_declaration c) { m.getName() == "foo" && !(c.getName() == m.getName()) } *)
  Definition named : pred_decl :=
    {| pd_name := "named";
       pd_params := [("method_declaration", "m"); ("class_declaration", "c")];
       pd_body := EBin BAnd (EBin BEq (EChain "m" [MCall "getName" []]) (EVal (VStr """foo""")))
                    (EUn UNot (EParen (EBin BEq (EChain "c" [MCall "getName" []])
                                         (EChain "m" [MCall "getName" []])))) |}.
  (* predicate both(class_declaration k, method_declaration m) { named(m, k) || k.getName() == "D" }
     : a call inside a body, with the formals passed on in swapped order *)
  Definition both : pred_decl :=
    {| pd_name := "both";
       pd_params := [("class_declaration", "k"); ("method_declaration", "m")];
       pd_body := EBin BOr (ECall "named" [EChain "m" []; EChain "k" []])
                    (EBin BEq (EChain "k" [MCall "getName" []]) (EVal (VStr """D"""))) |}.
  (* FROM method_declaration AS md, class_declaration AS cd
     WHERE (both(cd, md)) && !(md.getName() == "bar") SELECT md *)
  Definition q : query :=
    {| q_preds := [named; both];
       q_from := [("method_declaration", "md"); ("class_declaration", "cd")];
       q_where := Some (EBin BAnd (EParen (ECall "both" [EChain "cd" []; EChain "md" []]))
                          (EUn UNot (EParen (EBin BEq (EChain "md" [MCall "getName" []])
                                               (EVal (VStr """bar"""))))));
       q_select := [SelVar "md"] |}.

  Definition A : expr := EBin BLt (EChain "md" [MCall "getName" []]) (EVal (VNum "1")).  (* run-time error *)
  Definition B : expr := EBin BEq (EChain "md" [MCall "getName" []]) (EVal (VStr """foo""")).
  Definition C : expr := ECall "both" [EChain "cd" []; EChain "md" []].

  Example g_nodup : NoDup g.
  Proof.
    apply NoDup_map_inv with (f := n_idpre). vm_compute.
    repeat (constructor; [cbn [In]; intuition discriminate|]). constructor.
  Qed.
  Example product_nodup_hyp : Forall (@NoDup node) [[md "foo"; md "bar"]; [cd "C"; cd "D"]].
  Proof.
    repeat constructor; cbn [In]; try (intros [H|H]; [discriminate H|exact H]); intros [].
  Qed.
  Example candidates_ex :
    List.map (List.map n_name) (candidates q g) = [["foo"; "C"]; ["bar"; "C"]; ["foo"; "D"]; ["bar"; "D"]].
  Proof. vm_compute. reflexivity. Qed.

  Example results_ex : results q g = [[md "foo"; cd "C"]; [md "foo"; cd "D"]].
  Proof. vm_compute. reflexivity. Qed.
  Example results_sound_hyp : In [md "foo"; cd "D"] (results q g).
  Proof. rewrite results_ex. right. now left. Qed.
  Example results_complete_hyp :
    In [md "foo"; cd "C"] (candidates q g) /\ accepted q [md "foo"; cd "C"] = Accept.
  Proof. apply results_iff. rewrite results_ex. now left. Qed.
  Example results_no_where_hyp : q_where (with_where q None) = None.
  Proof. reflexivity. Qed.

  Example wf : wf_query q = true.
  Proof. vm_compute. reflexivity. Qed.
  Example refine_hyp :
    forall t, In t (candidates q g) -> spec_accepted q t <> Unknown /\ static_ok q t.
  Proof. apply refine_check_ok. vm_compute. reflexivity. Qed.
  Example refine : results q g = spec_results q g.
  Proof. apply results_refine_spec; [exact wf|exact refine_hyp]. Qed.
  (* the hypotheses of inline_seval inside the call both(cd, md): the substitution and the
     specification environment the call creates are related *)
  Example R_hyp :
    let env0 := tuple_env q [md "foo"; cd "C"] in
    R env0 [("k", XParen (XVar "cd")); ("m", XParen (XVar "md"))]
      [("k", BEnt "class_declaration" (cd "C")); ("m", BEnt "method_declaration" (md "foo"))].
  Proof.
    intros env0.
    apply (R_call env0 ["k"; "m"] [_; _] [_; _]). repeat constructor.
  Qed.
  (* the static-checker hypothesis is not gratuitous: a compile-time type error in a branch the
     specification never evaluates makes the implementation reject every tuple *)
  Definition q_static : query :=
    with_where q (Some (EBin BOr B (EBin BLt (EVal (VNum "1")) (EVal (VStr """s"""))))).
  Example static_ok_needed :
    wf_query q_static = true /\
    spec_accepted q_static [md "foo"; cd "C"] = Accept /\ accepted q_static [md "foo"; cd "C"] = Reject.
  Proof. vm_compute. auto. Qed.

  Example total_B : total q g B.
  Proof. apply total_check_ok. vm_compute. reflexivity. Qed.
  Example total_C : total q g C.
  Proof. apply total_check_ok. vm_compute. reflexivity. Qed.
  Example not_total_A : ~ total q g A.
  Proof.
    intros H. destruct (H _ (proj1 results_complete_hyp)) as [b Hb]. vm_compute in Hb. discriminate Hb.
  Qed.
  Example or_ex t :
    In t (spec_results (with_where q (Some (EBin BOr C B))) g) <->
    In t (spec_results (with_where q (Some C)) g) \/ In t (spec_results (with_where q (Some B)) g).
  Proof. apply spec_or, total_C. Qed.
  Example not_ex :
    List.map (List.map n_name) (spec_results (with_where q (Some (EUn UNot C))) g) = [["bar"; "C"]].
  Proof. vm_compute. reflexivity. Qed.
  Example equiv_hyp :
    forall t, In t (candidates q g) ->
              sv q t (EBin BAnd B C) = sv q t (ECall "named" [EChain "md" []; EChain "cd" []]).
  Proof.
    intros t Ht. vm_compute in Ht.
    destruct Ht as [<-|[<-|[<-|[<-|[]]]]]; vm_compute; reflexivity.
  Qed.

  Module ValueParams.
    (* predicate hasName(method_declaration x, string s) { x.getName() == s } *)
    Definition hasName : pred_decl :=
      {| pd_name := "hasName";
         pd_params := [("method_declaration", "x"); ("string", "s")];
         pd_body := EBin BEq (EChain "x" [MCall "getName" []]) (EChain "s" []) |}.
    (* predicate first(method_declaration a, string t) { hasName(a, t) } : passes its value on *)
    Definition first : pred_decl :=
      {| pd_name := "first";
         pd_params := [("method_declaration", "a"); ("string", "t")];
         pd_body := ECall "hasName" [EChain "a" []; EChain "t" []] |}.
    Definition alpha : expr := EVal (VStr """alpha""").
    Definition delta : expr := EVal (VStr """delta""").
    (* FROM method_declaration AS m WHERE first(m, "alpha") || first(m, ("delta")) SELECT m *)
    Definition qv : query :=
      {| q_preds := [hasName; first];
         q_from := [("method_declaration", "m")];
         q_where := Some (EBin BOr (ECall "first" [EChain "m" []; alpha])
                            (ECall "first" [EChain "m" []; EParen delta]));
         q_select := [SelVar "m"] |}.
    Definition g2 : list node := [md "alpha"; md "beta"].
    Definition g3 : list node := [md "alpha"; md "beta"; md "delta"].

    Example wf_v : wf_query qv = true.
    Proof. vm_compute. reflexivity. Qed.
    (* the specification gives the query a meaning on every candidate, the hypotheses of the
       refinement theorem hold, and the result is a non-empty strict subset of the candidates *)
    Example refine_hyp_v2 :
      forall t, In t (candidates qv g2) -> spec_accepted qv t <> Unknown /\ static_ok qv t.
    Proof. apply refine_check_ok. vm_compute. reflexivity. Qed.
    Example refine_hyp_v3 :
      forall t, In t (candidates qv g3) -> spec_accepted qv t <> Unknown /\ static_ok qv t.
    Proof. apply refine_check_ok. vm_compute. reflexivity. Qed.
    Example refine_v2 : results qv g2 = spec_results qv g2.
    Proof. apply results_refine_spec; [exact wf_v|exact refine_hyp_v2]. Qed.
    Example refine_v3 : results qv g3 = spec_results qv g3.
    Proof. apply results_refine_spec; [exact wf_v|exact refine_hyp_v3]. Qed.
    Example spec_results_v2 :
      candidates qv g2 = [[md "alpha"]; [md "beta"]] /\
      spec_results qv g2 = [[md "alpha"]] /\ results qv g2 = [[md "alpha"]].
    Proof. vm_compute. auto. Qed.
    Example spec_results_v3 :
      candidates qv g3 = [[md "alpha"]; [md "beta"]; [md "delta"]] /\
      spec_results qv g3 = [[md "alpha"]; [md "delta"]] /\ results qv g3 = [[md "alpha"]; [md "delta"]].
    Proof. vm_compute. auto. Qed.
    Example in_fragment_v : in_fragment qv g3 = true.
    Proof. vm_compute. reflexivity. Qed.
    Example expanded_v :
      expanded_condition qv =
      "( ( ( ( m ) ) . getName ( ) == ( ( ""alpha"" ) ) ) ) || ( ( ( ( m ) ) . getName ( ) == ( ( ( ""delta"" ) ) ) ) )".
    Proof. vm_compute. reflexivity. Qed.

    (* the text of the inner call, hasName(a, t), is the same in both expansions of first;
       its value depends on what t is bound to (a memo keyed by the call text would be wrong) *)
    Definition inner : expr := ECall "hasName" [EChain "a" []; EChain "t" []].
    Definition env_m : tenv := tuple_env qv [md "alpha"].
    Definition fe (v : bytes) : fenv :=
      [("a", BEnt "method_declaration" (md "alpha")); ("t", BVal (VStr v))].
    Example same_call_two_bindings :
      seval 2 (q_preds qv) ["first/2"] env_m (fe """alpha""") inner = Val (VB true) /\
      seval 2 (q_preds qv) ["first/2"] env_m (fe """delta""") inner = Val (VB false).
    Proof. vm_compute. auto. Qed.
    (* ... and so does the implementation's expansion under the two related substitutions *)
    Definition sb (v : bytes) : subst :=
      [("a", XParen (XVar "m")); ("t", XParen (XVal (VStr v)))].
    Example R_hyp_v v : R env_m (sb v) (fe v).
    Proof.
      apply (R_call env_m ["a"; "t"] [_; _] [_; _]). repeat constructor.
    Qed.
    Example same_call_two_substitutions :
      eval env_m (inline 2 (q_preds qv) ["first/2"] (sb """alpha""") inner) = Val (VB true) /\
      eval env_m (inline 2 (q_preds qv) ["first/2"] (sb """delta""") inner) = Val (VB false).
    Proof. vm_compute. auto. Qed.

    (* shadowing: a value formal spelled like the FROM alias, and like another predicate's formal.
       predicate is(method_declaration x, string m) { x.getName() == m }
       FROM method_declaration AS m WHERE is(m, "beta") : inside the body m is the string *)
    Definition is_ : pred_decl :=
      {| pd_name := "is";
         pd_params := [("method_declaration", "x"); ("string", "m")];
         pd_body := EBin BEq (EChain "x" [MCall "getName" []]) (EChain "m" []) |}.
    Definition q_shadow : query :=
      {| q_preds := [is_];
         q_from := [("method_declaration", "m")];
         q_where := Some (ECall "is" [EChain "m" []; EVal (VStr """beta""")]);
         q_select := [SelVar "m"] |}.
    Example shadow_ex :
      wf_query q_shadow = true /\ refine_check q_shadow g3 = true /\
      spec_results q_shadow g3 = [[md "beta"]] /\ results q_shadow g3 = [[md "beta"]].
    Proof. vm_compute. auto. Qed.
    (* two formals of the same name: the first decides, in the specification as in the expansion.
       predicate dup(method_declaration x, string x) { x.getName() == "beta" } *)
    Definition dup : pred_decl :=
      {| pd_name := "dup";
         pd_params := [("method_declaration", "x"); ("string", "x")];
         pd_body := EBin BEq (EChain "x" [MCall "getName" []]) (EVal (VStr """beta""")) |}.
    Definition q_dup : query :=
      {| q_preds := [dup];
         q_from := [("method_declaration", "m")];
         q_where := Some (ECall "dup" [EChain "m" []; EVal (VStr """zeta""")]);
         q_select := [SelVar "m"] |}.
    Example dup_ex :
      wf_query q_dup = true /\ refine_check q_dup g3 = true /\
      spec_results q_dup g3 = [[md "beta"]] /\ results q_dup g3 = [[md "beta"]].
    Proof. vm_compute. auto. Qed.

    (* hasName(m, 7): a number compared with a name is false, in the specification as in the expansion *)
    Definition q_num : query :=
      {| q_preds := [hasName];
         q_from := [("method_declaration", "m")];
         q_where := Some (ECall "hasName" [EChain "m" []; EVal (VNum "7")]);
         q_select := [SelVar "m"] |}.
    Example num_ex :
      wf_query q_num = true /\ refine_check q_num g3 = true /\
      spec_results q_num g3 = [] /\ results q_num g3 = [].
    Proof. vm_compute. auto. Qed.

    (* the static-checker hypothesis matters more with value parameters: substitution makes the
       literal's type visible to expr-lang's checker inside the body, binding does not.
       predicate low(method_declaration x, string s) { x.getName() == "alpha" || s < 1 }
       low(m, "k"): the specification accepts alpha (|| short-circuits), the implementation
       rejects every tuple with a compile error ("k" < 1) *)
    Definition low : pred_decl :=
      {| pd_name := "low";
         pd_params := [("method_declaration", "x"); ("string", "s")];
         pd_body := EBin BOr (EBin BEq (EChain "x" [MCall "getName" []]) alpha)
                      (EBin BLt (EChain "s" []) (EVal (VNum "1"))) |}.
    Definition q_low : query :=
      {| q_preds := [low];
         q_from := [("method_declaration", "m")];
         q_where := Some (ECall "low" [EChain "m" []; EVal (VStr """k""")]);
         q_select := [SelVar "m"] |}.
    Example static_ok_needed_value :
      wf_query q_low = true /\
      spec_accepted q_low [md "alpha"] = Accept /\ accepted q_low [md "alpha"] = Reject /\
      spec_results q_low g3 = [[md "alpha"]] /\ results q_low g3 = [].
    Proof. vm_compute. auto. Qed.
  End ValueParams.

  Example expanded_ex :
    expanded_condition q =
    "( ( ( ( ( md ) ) . getName ( ) == ""foo"" && ! ( ( ( cd ) ) . getName ( ) == ( ( md ) ) . getName ( ) ) ) || ( cd ) . getName ( ) == ""D"" ) ) && ! ( md . getName ( ) == ""bar"" )".
  Proof. vm_compute. reflexivity. Qed.
  Example expanded_ex' :
    match condition q with Some c => join " " (xprint c) = expanded_condition q | None => False end.
  Proof. vm_compute. reflexivity. Qed.
End Examples.

(* without totality of the left operand, disjunction is neither union nor commutative: with A a
   run-time error (a string accessor compared with < against an integer) and B true on the
   "foo" tuples, B || A selects them and A || B selects nothing *)
Lemma spec_or_needs_total :
  exists q g A B,
    total q g B /\ ~ total q g A /\
    spec_results (with_where q (Some (EBin BOr A B))) g = [] /\
    spec_results (with_where q (Some (EBin BOr B A))) g <> [] /\
    spec_results (with_where q (Some B)) g <> [].
Proof.
  exists Examples.q, Examples.g, Examples.A, Examples.B.
  split; [exact Examples.total_B|]. split; [exact Examples.not_total_A|].
  split; [vm_compute; reflexivity|]. split; vm_compute; discriminate.
Qed.
Print Assumptions spec_or_needs_total.

Print Assumptions results_iff.
Print Assumptions candidates_iff.
Print Assumptions candidates_nodup.
Print Assumptions candidates_count.
Print Assumptions spec_equiv_true.
Print Assumptions spec_not_not_total.
Print Assumptions spec_or_comm.
Print Assumptions spec_and_comm.
Print Assumptions tsub_of_paren.
Print Assumptions refine_check_ok.
Print Assumptions total_check_ok.
Print Assumptions Examples.refine.
Print Assumptions Examples.static_ok_needed.
Print Assumptions atom_eval_entities.
Print Assumptions Examples.ValueParams.refine_v3.
Print Assumptions Examples.ValueParams.same_call_two_bindings.
