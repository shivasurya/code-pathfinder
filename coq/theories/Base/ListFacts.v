(* Facts about the standard list functions that the standard library of Coq 8.16 lacks. *)
From Coq Require Import List Arith Lia Bool Permutation.
Import ListNotations.

Lemma filter_andb {A} (p q : A -> bool) l : filter (fun x => p x && q x) l = filter q (filter p l).
Proof.
  induction l as [|x l IH]; [reflexivity|]. cbn [filter].
  destruct (p x) eqn:P; cbn [filter andb]; [destruct (q x)|]; rewrite IH; reflexivity.
Qed.

Lemma filter_comm {A} (p q : A -> bool) l : filter p (filter q l) = filter q (filter p l).
Proof. rewrite <- !filter_andb. apply filter_ext. intro x. apply andb_comm. Qed.

Lemma filter_idem {A} (p : A -> bool) l : filter p (filter p l) = filter p l.
Proof. rewrite <- filter_andb. apply filter_ext. intro x. apply andb_diag. Qed.

Lemma filter_const {A} (q : A -> bool) b l :
  (forall x, In x l -> q x = b) -> filter q l = if b then l else [].
Proof.
  intro H. induction l as [|x l IH]; [destruct b; reflexivity|]. cbn [filter].
  rewrite (H x (or_introl eq_refl)), IH by (intros y Hy; apply H; right; exact Hy). destruct b; reflexivity.
Qed.

Lemma filter_decided {A} (p q : A -> bool) b l :
  forallb p l = true -> (forall k, p k = true -> q k = b) -> filter q l = if b then l else [].
Proof. intros H Hq. apply filter_const. intros x Hx. apply Hq. exact (proj1 (forallb_forall p l) H x Hx). Qed.

Lemma filter_length_le {A} (p : A -> bool) (l : list A) : length (filter p l) <= length l.
Proof. induction l as [|x l IH]; cbn [filter length]; [lia|]. destruct (p x); cbn [length]; lia. Qed.

Lemma forallb_filter {A} (p : A -> bool) l : forallb p (filter p l) = true.
Proof. apply forallb_forall. intros x Hx. apply filter_In in Hx. apply Hx. Qed.

Lemma forallb_andb {A} (p q : A -> bool) l :
  forallb (fun x => p x && q x) l = true <-> forallb p l = true /\ forallb q l = true.
Proof.
  rewrite !forallb_forall. split.
  - intro H. split; intros x Hx; apply H, andb_true_iff in Hx; apply Hx.
  - intros [Hp Hq] x Hx. rewrite Hp, Hq by exact Hx. reflexivity.
Qed.

Lemma forallb_or_split {A} (g : A -> bool) l :
  forallb g l = true \/ exists l1 x l2, l = l1 ++ x :: l2 /\ g x = false.
Proof.
  induction l as [|a t IH]; cbn [forallb]; [left; reflexivity|].
  destruct (g a) eqn:Ha; [|right; exists [], a, t; auto].
  destruct IH as [IH | [l1 [x [l2 [-> Hx]]]]]; [left; exact IH|].
  right. exists (a :: l1), x, l2. auto.
Qed.

Lemma find_filter {A} (p : A -> bool) l : find p l = hd_error (filter p l).
Proof. induction l as [|x l IH]; [reflexivity|]. cbn [find filter]. destruct (p x); [reflexivity|exact IH]. Qed.

Lemma fold_left_filter {A S} (p : A -> bool) (h : S -> A -> S) l : forall s,
  fold_left (fun s x => if p x then h s x else s) l s = fold_left h (filter p l) s.
Proof. induction l as [|x l IH]; intro s; [reflexivity|]. cbn [fold_left filter]. destruct (p x); apply IH. Qed.

Lemma Forall_mid {A} {P : A -> Prop} {l1 x y l2} :
  Forall P (l1 ++ x :: l2) -> P y -> Forall P (l1 ++ y :: l2).
Proof.
  intros H Hy. apply Forall_app in H as [H1 H2]. apply Forall_app.
  split; [exact H1|]. inversion H2; subst. constructor; assumption.
Qed.

Lemma Forall2_len {A B} (R : A -> B -> Prop) l1 l2 : Forall2 R l1 l2 -> length l1 = length l2.
Proof. induction 1; cbn [length]; congruence. Qed.

Lemma Forall2_in_l {A B} (R : A -> B -> Prop) l1 l2 x :
  Forall2 R l1 l2 -> In x l1 -> exists y, In y l2 /\ R x y.
Proof.
  induction 1 as [|a b l1 l2 Hab H IH]; [contradiction|]. intros [<-|Hin]; [exists b; split; [left; reflexivity|exact Hab]|].
  destruct (IH Hin) as [y [Hy Hr]]. exists y. split; [right; exact Hy|exact Hr].
Qed.

Lemma Forall2_map_r {A B C} (P : A -> C -> Prop) (Q : A -> B -> Prop) (f : B -> C) :
  (forall a b, P a (f b) <-> Q a b) ->
  forall (l' : list B) (l : list A), Forall2 P l (map f l') <-> Forall2 Q l l'.
Proof.
  intros HPQ. induction l' as [|b l' IH]; intros l; cbn [map];
    split; intros H; inversion H; subst; constructor; try apply HPQ; try apply IH; assumption.
Qed.

Lemma NoDup_app_l {A} (a b : list A) : NoDup (a ++ b) -> NoDup a.
Proof.
  induction a as [|x a IH]; intro H; [constructor|]. inversion H as [|? ? Hn Hd]; subst. constructor.
  - intro Hi. apply Hn, in_or_app. left. exact Hi.
  - exact (IH Hd).
Qed.

Lemma NoDup_app_intro {A} (l1 l2 : list A) :
  NoDup l1 -> NoDup l2 -> (forall x, In x l1 -> ~ In x l2) -> NoDup (l1 ++ l2).
Proof.
  induction 1 as [|a l1 Hna _ IH]; cbn [app]; intros H2 Hd; [exact H2|].
  constructor; [rewrite in_app_iff; firstorder|]. apply IH; firstorder.
Qed.

Lemma NoDup_flat_map {A B} (f : A -> list B) (l : list A) :
  NoDup l -> (forall x, In x l -> NoDup (f x)) ->
  (forall x y b, In x l -> In y l -> In b (f x) -> In b (f y) -> x = y) ->
  NoDup (flat_map f l).
Proof.
  induction 1 as [|a l Hna _ IH]; cbn [flat_map]; intros Hf Hd; [constructor|].
  apply NoDup_app_intro; [apply Hf; now left|apply IH|].
  - intros x Hx. apply Hf. now right.
  - intros x y b Hx Hy. apply Hd; now right.
  - intros b Hb Hb'. apply in_flat_map in Hb' as [y [Hy Hby]].
    apply Hna. now rewrite (Hd a y b (or_introl eq_refl) (or_intror Hy) Hb Hby).
Qed.

Lemma Permutation_filter {A} (g : A -> bool) l l' :
  Permutation l l' -> Permutation (filter g l) (filter g l').
Proof.
  intro Hp. induction Hp as [| x l l' Hp IH | x y l | l l' l'' Hp1 IH1 Hp2 IH2]; cbn [filter].
  - constructor.
  - destruct (g x); [constructor|]; assumption.
  - destruct (g x), (g y); try apply Permutation_refl. constructor.
  - eapply Permutation_trans; eassumption.
Qed.

Lemma Permutation_NoDup_In {A} {l m : list A} :
  NoDup l -> Permutation l m -> NoDup m /\ forall x, In x l <-> In x m.
Proof.
  intros Hnd Hp. split; [eapply Permutation_NoDup; eassumption|].
  intros x. split; apply Permutation_in; [|apply Permutation_sym]; exact Hp.
Qed.

Lemma Permutation_filter_once {A} (p : A -> bool) {l m : list A} :
  NoDup l -> Permutation m (filter p l) -> NoDup m /\ forall x, In x m <-> In x l /\ p x = true.
Proof.
  intros Hnd Hp.
  destruct (Permutation_NoDup_In (NoDup_filter p Hnd) (Permutation_sym Hp)) as [Hm Hin].
  split; [exact Hm|]. intros x. rewrite <- filter_In. symmetry. apply Hin.
Qed.

Lemma list_sum_mid {A} (g : A -> nat) l1 x l2 :
  list_sum (map g (l1 ++ x :: l2)) = list_sum (map g l1) + g x + list_sum (map g l2).
Proof. rewrite map_app, list_sum_app. cbn [map list_sum]. apply Nat.add_assoc. Qed.

Lemma list_sum_bound {A} (f : A -> nat) (b : nat) (l : list A) :
  (forall x, In x l -> f x <= b) -> list_sum (map f l) <= b * length l.
Proof.
  induction l as [|x l IH]; intro H; [cbn; lia|].
  change (list_sum (map f (x :: l))) with (f x + list_sum (map f l)). cbn [length].
  pose proof (H x (or_introl eq_refl)). specialize (IH (fun y Hy => H y (or_intror Hy))). lia.
Qed.

Lemma flat_map_length_bound {A B} (f : A -> list B) (b : nat) (l : list A) :
  (forall x, length (f x) <= b) -> length (flat_map f l) <= b * length l.
Proof.
  intro H. induction l as [|x l IH]; cbn [flat_map length]; [lia|]. rewrite app_length. specialize (H x). lia.
Qed.

Lemma last_cons {A} (l : list A) : forall x d, last (x :: l) d = last l x.
Proof.
  induction l as [|y l IH]; intros x d; [reflexivity|].
  change (last (y :: l) d = last (y :: l) x). rewrite !IH. reflexivity.
Qed.

Lemma last_app {A} (a b : list A) d : b <> [] -> last (a ++ b) d = last b d.
Proof.
  intro Hb. induction a as [|x a IH]; [reflexivity|]. cbn [app last].
  destruct (a ++ b) eqn:E; [apply app_eq_nil in E as [_ ->]; congruence | exact IH].
Qed.

Lemma last_rev {A} (l : list A) d : last (rev l) d = hd d l.
Proof. destruct l; [reflexivity | apply last_last]. Qed.

Lemma last_forallb {A} (p : A -> bool) l d : l <> [] -> forallb p l = true -> p (last l d) = true.
Proof.
  induction l as [|x l IH]; [congruence|]. intros _ H. apply andb_prop in H as [Hx Hl].
  destruct l as [|y l]; [exact Hx|]. apply IH; [discriminate | exact Hl].
Qed.

Lemma removelast_length {A} (l : list A) : length (removelast l) = length l - 1.
Proof.
  induction l as [|x l IH]; [reflexivity|]. destruct l; [reflexivity|].
  cbn [removelast length] in *. rewrite IH. lia.
Qed.

Lemma skipn_skipn_add {A} (n : nat) : forall (m : nat) (l : list A), skipn n (skipn m l) = skipn (m + n) l.
Proof. induction m as [|m IH]; intro l; [reflexivity|]. destruct l; [now rewrite !skipn_nil|]. cbn [skipn plus]. apply IH. Qed.

Lemma nth_error_mid {A} (l1 : list A) x l2 : nth_error (l1 ++ x :: l2) (length l1) = Some x.
Proof. rewrite nth_error_app2 by lia. rewrite Nat.sub_diag. reflexivity. Qed.

Lemma firstn_mid {A} (l1 : list A) x l2 : firstn (length l1) (l1 ++ x :: l2) = l1.
Proof. rewrite firstn_app, Nat.sub_diag, firstn_all. cbn. apply app_nil_r. Qed.

Lemma skipn_mid {A} (l1 : list A) x l2 : skipn (S (length l1)) (l1 ++ x :: l2) = l2.
Proof. induction l1 as [|a l1 IH]; [reflexivity | exact IH]. Qed.

Lemma map_flat_map {A B C} (f : B -> C) (g : A -> list B) l :
  map f (flat_map g l) = flat_map (fun x => map f (g x)) l.
Proof. rewrite !flat_map_concat_map, concat_map, map_map. reflexivity. Qed.

Lemma map_repeat {A B} (f : A -> B) x k : map f (repeat x k) = repeat (f x) k.
Proof. induction k as [|k IH]; cbn [repeat map]; congruence. Qed.

Lemma list_sum_repeat a k : list_sum (repeat a k) = k * a.
Proof. induction k as [|k IH]; [reflexivity|]. cbn [repeat Nat.mul]. rewrite <- IH. reflexivity. Qed.

Lemma Forall_seq_lt (P : nat -> Prop) k : Forall P (seq 0 k) -> forall j, j < k -> P j.
Proof. intros H j Hj. apply (proj1 (Forall_forall P _) H), in_seq. lia. Qed.

Lemma forallb_imp {A} (p q : A -> bool) l :
  (forall c, p c = true -> q c = true) -> forallb p l = true -> forallb q l = true.
Proof.
  intros Hpq. induction l as [|c l IH]; cbn; [reflexivity|]. intro H.
  apply andb_true_iff in H as [Hc Hl]. rewrite (Hpq _ Hc), (IH Hl). reflexivity.
Qed.

Lemma andb4 a b c d :
  a && b && c && d = true -> a = true /\ b = true /\ c = true /\ d = true.
Proof. destruct a, b, c, d; cbn; intro H; try discriminate H; auto. Qed.
