(* Facts about the JSON model: examples checked against real Go 1.23 output, and the
   decode/encode round trip. *)
From Coq Require Import ZArith Lia.
From Coq Require DecimalFacts DecimalN.
From CPF Require Import Base.Bytes Base.BytesFacts Base.Json.
Local Open Scope bs_scope.

(* Examples.  Expected values are the output of a Go 1.23 program calling json.Marshal on the
   string with bytes [ex_str_in] (quote, backslash, newline, tab, 0x01, <>&, U+2028, U+2029,
   U+1F600, an invalid byte 0xff, DEL, \b, \f, \r, slash, U+00E9), and json.MarshalIndent(v, "", "  ")
   / json.Marshal(v) on a struct value [v] with the shape of [ex_val]. *)

Definition ex_str_in : bytes :=
  [
   x61; x22; x62; x5c; x63; x0a; x64; x09; x65; x01; x66; x3c; x3e; x26; x67; xe2;
   x80; xa8; x68; xe2; x80; xa9; x69; xf0; x9f; x98; x80; x6a; xff; x6b; x7f; x08;
   x0c; x0d; x2f; xc3; xa9].

Definition ex_str_out : bytes :=
  [
   x22; x61; x5c; x22; x62; x5c; x5c; x63; x5c; x6e; x64; x5c; x74; x65; x5c; x75;
   x30; x30; x30; x31; x66; x5c; x75; x30; x30; x33; x63; x5c; x75; x30; x30; x33;
   x65; x5c; x75; x30; x30; x32; x36; x67; x5c; x75; x32; x30; x32; x38; x68; x5c;
   x75; x32; x30; x32; x39; x69; xf0; x9f; x98; x80; x6a; x5c; x75; x66; x66; x66;
   x64; x6b; x7f; x5c; x62; x5c; x66; x5c; x72; x2f; xc3; xa9; x22].

Definition ex_indent_out : bytes :=
  [
   x7b; x0a; x20; x20; x22; x61; x22; x3a; x20; x5b; x5d; x2c; x0a; x20; x20; x22;
   x62; x22; x3a; x20; x5b; x0a; x20; x20; x20; x20; x31; x2c; x0a; x20; x20; x20;
   x20; x5b; x5d; x2c; x0a; x20; x20; x20; x20; x5b; x0a; x20; x20; x20; x20; x20;
   x20; x2d; x32; x2c; x0a; x20; x20; x20; x20; x20; x20; x33; x0a; x20; x20; x20;
   x20; x5d; x2c; x0a; x20; x20; x20; x20; x7b; x7d; x2c; x0a; x20; x20; x20; x20;
   x7b; x0a; x20; x20; x20; x20; x20; x20; x22; x6b; x22; x3a; x20; x30; x0a; x20;
   x20; x20; x20; x7d; x0a; x20; x20; x5d; x2c; x0a; x20; x20; x22; x63; x22; x3a;
   x20; x7b; x7d; x2c; x0a; x20; x20; x22; x64; x22; x3a; x20; x7b; x0a; x20; x20;
   x20; x20; x22; x78; x5c; x75; x30; x30; x33; x63; x79; x22; x3a; x20; x22; x73;
   x22; x2c; x0a; x20; x20; x20; x20; x22; x79; x22; x3a; x20; x5b; x0a; x20; x20;
   x20; x20; x20; x20; x5b; x0a; x20; x20; x20; x20; x20; x20; x20; x20; x5b; x5d;
   x0a; x20; x20; x20; x20; x20; x20; x5d; x0a; x20; x20; x20; x20; x5d; x2c; x0a;
   x20; x20; x20; x20; x22; x7a; x22; x3a; x20; x74; x72; x75; x65; x2c; x0a; x20;
   x20; x20; x20; x22; x77; x22; x3a; x20; x6e; x75; x6c; x6c; x0a; x20; x20; x7d;
   x2c; x0a; x20; x20; x22; x65; x22; x3a; x20; x2d; x31; x37; x0a; x7d].

Definition ex_compact_out : bytes :=
  [
   x7b; x22; x61; x22; x3a; x5b; x5d; x2c; x22; x62; x22; x3a; x5b; x31; x2c; x5b;
   x5d; x2c; x5b; x2d; x32; x2c; x33; x5d; x2c; x7b; x7d; x2c; x7b; x22; x6b; x22;
   x3a; x30; x7d; x5d; x2c; x22; x63; x22; x3a; x7b; x7d; x2c; x22; x64; x22; x3a;
   x7b; x22; x78; x5c; x75; x30; x30; x33; x63; x79; x22; x3a; x22; x73; x22; x2c;
   x22; x79; x22; x3a; x5b; x5b; x5b; x5d; x5d; x5d; x2c; x22; x7a; x22; x3a; x74;
   x72; x75; x65; x2c; x22; x77; x22; x3a; x6e; x75; x6c; x6c; x7d; x2c; x22; x65;
   x22; x3a; x2d; x31; x37; x7d].

Definition ex_val : json :=
  JObj [("a", JArr []);
        ("b", JArr [JNum 1; JArr []; JArr [JNum (-2); JNum 3]; JObj []; JObj [("k", JNum 0)]]);
        ("c", JObj []);
        ("d", JObj [("x<y", JStr "s"); ("y", JArr [JArr [JArr []]]); ("z", JBool true); ("w", JNull)]);
        ("e", JNum (-17))].

Example ex_string : encode_string ex_str_in = ex_str_out.
Proof. vm_compute. reflexivity. Qed.

Example ex_string_value : encode (JStr ex_str_in) = ex_str_out.
Proof. vm_compute. reflexivity. Qed.

Example ex_indent : encode_indent ex_val = ex_indent_out.
Proof. vm_compute. reflexivity. Qed.

Example ex_compact : encode ex_val = ex_compact_out.
Proof. vm_compute. reflexivity. Qed.

Example ex_empty_arr : encode_indent (JArr []) = "[]".
Proof. vm_compute. reflexivity. Qed.

Example ex_empty_obj : encode_indent (JObj []) = "{}".
Proof. vm_compute. reflexivity. Qed.

Example ex_decode_indent : decode ex_indent_out = Some ex_val.
Proof. vm_compute. reflexivity. Qed.

Example ex_decode_compact : decode ex_compact_out = Some ex_val.
Proof. vm_compute. reflexivity. Qed.

(* an escaped slash, which the encoder never produces; raw multi-byte runes (U+00E9, U+1F600), copied;
   a lone high surrogate (-> U+FFFD) *)
Example ex_decode_escapes :
  decode " ""\/é😀\ud83dx"" " = Some (JStr [x2f; xc3; xa9; xf0; x9f; x98; x80; xef; xbf; xbd; x78]).
Proof. vm_compute. reflexivity. Qed.

Example ex_decode_rejects :
  map decode ["01"; "1.5"; "1e3"; "-"; "[1,]"; "{""a"":1,}"; "[1] x"; """a"; "nul"; "[1 2]"; [x22; x0a; x22]; ""; "-0"; " [ 0 , -12 ] "]
  = [None; None; None; None; None; None; None; None; None; None; None; None; Some (JNum 0); Some (JArr [JNum 0; JNum (-12)])].
Proof. vm_compute. reflexivity. Qed.

Lemma dec_str_hi b acc r : (code b <? 128)%N = false -> dec_str acc (b :: r) = dec_str (b :: acc) r.
Proof. destruct b; intros H; try (vm_compute in H; discriminate H); reflexivity. Qed.

Lemma dec_str_ascii b acc k : dec_str acc (esc_ascii b k) = dec_str (b :: acc) k.
Proof. destruct b; reflexivity. Qed.

(* [t] is kept a variable: on a tail given by its bytes [cbn] would unfold [enc_str] on them as well *)
Lemma enc_str_multi b0 t k :
  (code b0 <? 128)%N = false ->
  enc_str (b0 :: t) k =
  match rune_width (b0 :: t), t with
  | 2, b1 :: r => b0 :: b1 :: enc_str r k
  | 3, b1 :: b2 :: r =>
      if beqb b0 xe2 && beqb b1 x80 && beqb b2 xa8 then esc_202x x38 (enc_str r k)
      else if beqb b0 xe2 && beqb b1 x80 && beqb b2 xa9 then esc_202x x39 (enc_str r k)
      else b0 :: b1 :: b2 :: enc_str r k
  | 4, b1 :: b2 :: b3 :: r => b0 :: b1 :: b2 :: b3 :: enc_str r k
  | _, _ => esc_fffd (enc_str t k)
  end.
Proof.
  intros Ha. cbn [enc_str]. rewrite Ha.
  destruct (rune_width (b0 :: t)) as [|[|[|[|[|w]]]]]; reflexivity.
Qed.

Lemma beqb3_true a b c x y z : beqb a x && beqb b y && beqb c z = true -> a = x /\ b = y /\ c = z.
Proof. rewrite !andb_true_iff, !beqb_true. tauto. Qed.

Lemma dec_enc_str : forall s, valid_utf8b s = true ->
  forall acc rest, dec_str acc (enc_str s (x22 :: rest)) = Some (rev_append acc s, rest).
Proof.
  fix IH 1. intros [|b0 t] Hv acc rest; [reflexivity|]. cbn [valid_utf8b] in Hv.
  destruct (code b0 <? 128)%N eqn:Ea.
  { cbn [enc_str]. rewrite Ea, dec_str_ascii. exact (IH _ Hv _ _). }
  rewrite (enc_str_multi _ _ _ Ea).
  destruct (rune_width (b0 :: t)) as [|[|[|[|[|w]]]]] eqn:Ew; try discriminate Hv.
  - destruct t as [|b1 r]; [discriminate Hv|].
    rewrite (dec_str_hi _ _ _ Ea), (dec_str_hi _ _ _ (rune_width_cont b0 [] b1 r 2 Ew eq_refl)).
    exact (IH _ Hv _ _).
  - destruct t as [|b1 [|b2 r]]; try discriminate Hv.
    (* U+2028 and U+2029 are escaped; [dec_str acc (esc_202x x38 k)] computes to
       [dec_str (xa8 :: x80 :: xe2 :: acc) k], so [IH] applies as it stands *)
    destruct (beqb b0 xe2 && beqb b1 x80 && beqb b2 xa8) eqn:E8.
    { destruct (beqb3_true _ _ _ _ _ _ E8) as (-> & -> & ->). exact (IH _ Hv _ _). }
    destruct (beqb b0 xe2 && beqb b1 x80 && beqb b2 xa9) eqn:E9.
    { destruct (beqb3_true _ _ _ _ _ _ E9) as (-> & -> & ->). exact (IH _ Hv _ _). }
    rewrite (dec_str_hi _ _ _ Ea), (dec_str_hi _ _ _ (rune_width_cont b0 [] b1 (b2 :: r) 3 Ew eq_refl)),
      (dec_str_hi _ _ _ (rune_width_cont b0 [b1] b2 r 3 Ew eq_refl)).
    exact (IH _ Hv _ _).
  - destruct t as [|b1 [|b2 [|b3 r]]]; try discriminate Hv.
    rewrite (dec_str_hi _ _ _ Ea), (dec_str_hi _ _ _ (rune_width_cont b0 [] b1 (b2 :: b3 :: r) 4 Ew eq_refl)),
      (dec_str_hi _ _ _ (rune_width_cont b0 [b1] b2 (b3 :: r) 4 Ew eq_refl)),
      (dec_str_hi _ _ _ (rune_width_cont b0 [b1; b2] b3 r 4 Ew eq_refl)).
    exact (IH _ Hv _ _).
Qed.

Lemma dec_enc_string s rest :
  valid_utf8b s = true -> dec_str [] (enc_str s (x22 :: rest)) = Some (s, rest).
Proof. intros Hv. exact (dec_enc_str s Hv [] rest). Qed.

Theorem encode_string_injective s1 s2 :
  valid_utf8b s1 = true -> valid_utf8b s2 = true -> encode_string s1 = encode_string s2 -> s1 = s2.
Proof.
  intros H1 H2 E. injection E as E.
  pose proof (dec_enc_string s1 [] H1) as D. rewrite E, dec_enc_string in D by exact H2.
  injection D as D. symmetry. exact D.
Qed.
Print Assumptions encode_string_injective.

(* what may follow a value: end of input, white space, or one of  , ] }  *)
Definition stop (rest : bytes) : bool :=
  match rest with
  | [] => true
  | c :: _ => is_ws c || beqb c x2c || beqb c x5d || beqb c x7d
  end.

Lemma stop_read_uint rest : stop rest = true -> read_uint rest = (Decimal.Nil, rest) /\ frac_start rest = false.
Proof.
  destruct rest as [|c t]; [ intros _; split; reflexivity | ].
  destruct c; intros H; try (vm_compute in H; discriminate H); split; reflexivity.
Qed.

Lemma read_uint_bytes u rest :
  read_uint rest = (Decimal.Nil, rest) -> read_uint (uint_bytes u ++ rest) = (u, rest).
Proof.
  intros H. induction u; cbn [uint_bytes app read_uint digit_ctor]; [ exact H | rewrite IHu; reflexivity .. ].
Qed.

Lemma to_uint_unorm n : Decimal.unorm (N.to_uint n) = N.to_uint n.
Proof.
  rewrite <- (DecimalN.Unsigned.to_of (N.to_uint n)). rewrite DecimalN.Unsigned.of_to. reflexivity.
Qed.

Lemma uint_beq_refl u : Decimal.uint_beq u u = true.
Proof. induction u; cbn [Decimal.uint_beq]; auto. Qed.

Lemma read_nat_dec n rest : stop rest = true -> read_nat (dec n ++ rest) = Some (n, rest).
Proof.
  intros H. destruct (stop_read_uint rest H) as [H1 H2].
  unfold read_nat, dec. rewrite read_uint_bytes by exact H1.
  rewrite to_uint_unorm. rewrite uint_beq_refl.
  rewrite H2. rewrite DecimalN.Unsigned.of_to. reflexivity.
Qed.

Definition numstart (c : byte) : bool :=
  match digit_ctor c with Some _ => true | None => beqb c x2d end.

Lemma dec_head n : exists c t, dec n = c :: t /\ numstart c = true /\ beqb c x2d = false.
Proof.
  unfold dec. pose proof (to_uint_unorm n) as H.
  destruct (N.to_uint n) eqn:E;
    [ exfalso; exact (DecimalFacts.unorm_nonnil _ H) | .. ];
    cbn [uint_bytes]; eexists; eexists; (split; [ reflexivity | split; reflexivity ]).
Qed.

Lemma enc_num_head z : exists c t, enc_num z = c :: t /\ numstart c = true.
Proof.
  unfold enc_num. destruct (z <? 0)%Z.
  - eexists; eexists; split; reflexivity.
  - destruct (dec_head (Z.to_N z)) as (c & t & E & H & _). exists c, t. split; assumption.
Qed.

Lemma parse_number_enc z rest : stop rest = true -> parse_number (enc_num z ++ rest) = Some (z, rest).
Proof.
  intros H. unfold enc_num. destruct (z <? 0)%Z eqn:Ez.
  - cbn [app parse_number]. change (beqb x2d x2d) with true. cbv iota.
    rewrite read_nat_dec by exact H. f_equal. f_equal. lia.
  - pose proof (read_nat_dec (Z.to_N z) rest H) as R.
    destruct (dec_head (Z.to_N z)) as (c & t & E & _ & Hm). rewrite E in *.
    cbn [app parse_number] in *. rewrite Hm. rewrite R. f_equal. f_equal. lia.
Qed.

Lemma numstart_not_ws_rbrack c : numstart c = true -> is_ws c = false /\ beqb c x5d = false.
Proof. destruct c; intros H; try (vm_compute in H; discriminate H); split; reflexivity. Qed.

Lemma parse_value_numstart c : numstart c = true ->
  forall f r, parse_value (S f) (c :: r) =
              match parse_number (c :: r) with Some (z, rest) => Some (JNum z, rest) | None => None end.
Proof. destruct c; intros H; try (vm_compute in H; discriminate H); reflexivity. Qed.

Lemma parse_value_num f z rest :
  stop rest = true -> parse_value (S f) (enc_num z ++ rest) = Some (JNum z, rest).
Proof.
  intros H. pose proof (parse_number_enc z rest H) as P.
  destruct (enc_num_head z) as (c & t & E & Hc). rewrite E in *. cbn [app] in *.
  rewrite (parse_value_numstart c Hc), P. reflexivity.
Qed.

Ltac split_match H :=
  repeat match type of H with context [match ?x with _ => _ end] => destruct x end;
  try discriminate H.

Lemma skip_ws_len s : length (skip_ws s) <= length s.
Proof. induction s as [|b r IH]; cbn [skip_ws length]; [ lia | destruct (is_ws b); cbn [length]; lia ]. Qed.

(* on a bound, not by [fix] on [s]: where the surrogate look-ahead fails the decoder resumes before
   the bytes it looked at, which the case analysis has by then taken apart, and the guard
   condition does not see a subterm *)
Lemma dec_str_len n : forall s acc str rest,
  length s <= n -> dec_str acc s = Some (str, rest) -> length rest < length s.
Proof.
  induction n as [|n IH]; intros [|b r] acc str rest Hn H; try discriminate H; cbn [length] in Hn; [ lia | ].
  cbn [dec_str] in H.
  split_match H; try (injection H as _ <-); try apply IH in H; cbn [length] in *; lia.
Qed.

Lemma read_uint_len s : forall u rest, read_uint s = (u, rest) -> length rest <= length s.
Proof.
  induction s as [|b r IH]; intros u rest H; cbn [read_uint] in H.
  - injection H as _ <-. lia.
  - destruct (digit_ctor b); [ destruct (read_uint r) as [u' rest']; specialize (IH _ _ eq_refl) | ];
      injection H as _ <-; cbn [length]; lia.
Qed.

(* [read_nat] accepts only a non-empty digit string ([unorm Nil] is not [Nil]) *)
Lemma read_nat_len s n rest : read_nat s = Some (n, rest) -> length rest < length s.
Proof.
  unfold read_nat. destruct s as [|b r]; [ discriminate | ]. cbn [read_uint].
  destruct (digit_ctor b) as [d|]; [ | discriminate ].
  destruct (read_uint r) as [u rest'] eqn:E. apply read_uint_len in E. intros H.
  split_match H. injection H as _ <-. cbn [length]. lia.
Qed.

Lemma parse_number_len s z rest : parse_number s = Some (z, rest) -> length rest < length s.
Proof.
  unfold parse_number. intros H. destruct s as [|c r]; [ discriminate H | ].
  destruct (beqb c x2d); [ destruct (read_nat r) as [[n rest']|] eqn:E
                         | destruct (read_nat (c :: r)) as [[n rest']|] eqn:E ]; try discriminate H;
    injection H as _ <-; apply read_nat_len in E; cbn [length] in *; lia.
Qed.

Definition fuel_ok (P : nat -> bytes -> option (json * bytes)) (f : nat) : Prop :=
  forall s v rest, P f s = Some (v, rest) ->
    length rest < length s /\
    forall f', length s - length rest <= f' -> P f' s = Some (v, rest).

(* at least one byte is consumed, so a fuel that covers the bytes consumed is positive: it is enough
   to show the success again at [S f'], where the parsers unfold *)
Lemma more_fuel (P : nat -> bytes -> option (json * bytes)) s v rest :
  length rest < length s ->
  (forall f', length s - length rest <= S f' -> P (S f') s = Some (v, rest)) ->
  length rest < length s /\ forall f', length s - length rest <= f' -> P f' s = Some (v, rest).
Proof. intros L H. split; [ exact L | ]. intros [|f'] Hf'; [ lia | exact (H f' Hf') ]. Qed.

(* the shape of the branches of [parse_value] for null, true and false *)
Lemma lit_len {A} (b : bool) (x : A) n (r : bytes) v rest :
  (if b then Some (x, skipn n r) else None) = Some (v, rest) -> length rest <= length r.
Proof. destruct b; [ | discriminate ]. intros [= _ <-]. rewrite skipn_length. lia. Qed.

Lemma fuel_all f :
  fuel_ok parse_value f /\ (forall acc, fuel_ok (fun f => parse_elems f acc) f) /\
  (forall acc, fuel_ok (fun f => parse_members f acc) f).
Proof.
  induction f as [|f (HV & HE & HM)]; [ repeat split; intros; discriminate | ]. split; [ | split ].
  - intros s v rest H. cbn [parse_value] in H.
    pose proof (skip_ws_len s) as Ls.
    destruct (skip_ws s) as [|c r] eqn:Es; [ discriminate H | ]. cbn [length] in Ls.
    destruct (beqb c x5b) eqn:B1.
    { pose proof (skip_ws_len r) as Lr.
      destruct (skip_ws r) as [|c2 r2] eqn:Er; [ discriminate H | ]. cbn [length] in Lr.
      destruct (beqb c2 x5d) eqn:B2.
      - injection H as <- <-. apply more_fuel; [ lia | intros f' Hf' ].
        cbn [parse_value]. rewrite Es, B1, Er, B2. reflexivity.
      - apply HE in H. destruct H as [L H]. cbn [length] in L. apply more_fuel; [ lia | intros f' Hf' ].
        cbn [parse_value]. rewrite Es, B1, Er, B2. apply H. cbn [length]. lia. }
    destruct (beqb c x7b) eqn:B3.
    { pose proof (skip_ws_len r) as Lr.
      destruct (skip_ws r) as [|c2 r2] eqn:Er; [ discriminate H | ]. cbn [length] in Lr.
      destruct (beqb c2 x7d) eqn:B2.
      - injection H as <- <-. apply more_fuel; [ lia | intros f' Hf' ].
        cbn [parse_value]. rewrite Es, B1, B3, Er, B2. reflexivity.
      - apply HM in H. destruct H as [L H]. cbn [length] in L. apply more_fuel; [ lia | intros f' Hf' ].
        cbn [parse_value]. rewrite Es, B1, B3, Er, B2. apply H. cbn [length]. lia. }
    (* strings, literals and numbers: the result does not depend on the fuel *)
    assert (G : length rest <= length r).
    { destruct (beqb c x22).
      { destruct (dec_str [] r) as [[str rest']|] eqn:E; [ | discriminate H ].
        injection H as _ <-. apply (dec_str_len _ _ _ _ _ (le_n _)) in E. lia. }
      destruct (beqb c x6e); [ exact (lit_len _ _ _ _ _ _ H) | ].
      destruct (beqb c x74); [ exact (lit_len _ _ _ _ _ _ H) | ].
      destruct (beqb c x66); [ exact (lit_len _ _ _ _ _ _ H) | ].
      destruct (parse_number (c :: r)) as [[z rest']|] eqn:E; [ | discriminate H ].
      injection H as _ <-. apply parse_number_len in E. cbn [length] in E. lia. }
    apply more_fuel; [ lia | intros f' Hf' ]. cbn [parse_value]. rewrite Es, B1, B3. exact H.
  - intros acc s v rest H. cbn [parse_elems] in H.
    destruct (parse_value f s) as [[v1 rest1]|] eqn:E1; [ | discriminate H ].
    apply HV in E1. destruct E1 as [L1 E1].
    pose proof (skip_ws_len rest1) as Ls.
    destruct (skip_ws rest1) as [|c r] eqn:Es; [ discriminate H | ]. cbn [length] in Ls.
    destruct (beqb c x2c) eqn:B1.
    + apply HE in H. destruct H as [L H]. apply (more_fuel (fun f => parse_elems f acc)); [ lia | intros f' Hf' ].
      cbn [parse_elems]. rewrite E1 by lia. rewrite Es, B1. apply H. lia.
    + destruct (beqb c x5d) eqn:B2; [ | discriminate H ].
      injection H as <- <-. apply (more_fuel (fun f => parse_elems f acc)); [ lia | intros f' Hf' ].
      cbn [parse_elems]. rewrite E1 by lia. rewrite Es, B1, B2. reflexivity.
  - intros acc s v rest H. cbn [parse_members] in H.
    pose proof (skip_ws_len s) as Ls.
    destruct (skip_ws s) as [|q r0] eqn:Es; [ discriminate H | ]. cbn [length] in Ls.
    destruct (beqb q x22) eqn:B0; [ | discriminate H ].
    destruct (dec_str [] r0) as [[key rest0]|] eqn:Ek; [ | discriminate H ].
    pose proof (dec_str_len _ _ _ _ _ (le_n _) Ek) as Lk.
    pose proof (skip_ws_len rest0) as L0.
    destruct (skip_ws rest0) as [|c0 r1] eqn:E0; [ discriminate H | ]. cbn [length] in L0.
    destruct (beqb c0 x3a) eqn:B1; [ | discriminate H ].
    destruct (parse_value f r1) as [[v1 rest1]|] eqn:E1; [ | discriminate H ].
    apply HV in E1. destruct E1 as [L1 E1].
    pose proof (skip_ws_len rest1) as L2.
    destruct (skip_ws rest1) as [|c r] eqn:E2; [ discriminate H | ]. cbn [length] in L2.
    destruct (beqb c x2c) eqn:B2.
    + apply HM in H. destruct H as [L H]. apply (more_fuel (fun f => parse_members f acc)); [ lia | intros f' Hf' ].
      cbn [parse_members]. rewrite Es, B0, Ek, E0, B1. rewrite E1 by lia. rewrite E2, B2. apply H. lia.
    + destruct (beqb c x7d) eqn:B3; [ | discriminate H ].
      injection H as <- <-. apply (more_fuel (fun f => parse_members f acc)); [ lia | intros f' Hf' ].
      cbn [parse_members]. rewrite Es, B0, Ek, E0, B1. rewrite E1 by lia. rewrite E2, B2, B3. reflexivity.
Qed.

(* the fuel [decode] supplies is enough whenever any fuel is *)
Theorem parse_value_fuel f s v rest :
  parse_value f s = Some (v, rest) -> parse_value (S (length s)) s = Some (v, rest).
Proof.
  intros H. destruct (fuel_all f) as (HV & _ & _). apply HV in H. destruct H as [L H]. apply H. lia.
Qed.
Print Assumptions parse_value_fuel.

Corollary decode_fuel f s v rest :
  parse_value f s = Some (v, rest) -> skip_ws rest = [] -> decode s = Some v.
Proof. intros H E. unfold decode. rewrite (parse_value_fuel f s v rest H), E. reflexivity. Qed.
Print Assumptions decode_fuel.

(* fuel needed by [parse_value] *)
Fixpoint json_size (v : json) : nat :=
  match v with
  | JArr l => S (list_sum (map (fun x => S (json_size x)) l))
  | JObj l => S (list_sum (map (fun kv => S (json_size (snd kv))) l))
  | _ => 1
  end.

Lemma list_sum_cons a l : list_sum (a :: l) = a + list_sum l.
Proof. reflexivity. Qed.

Lemma skip_ws_spaces d k : skip_ws (spaces d k) = skip_ws k.
Proof. induction d as [|d IH]; [ reflexivity | exact IH ]. Qed.

Lemma skip_ws_nl m d k : skip_ws (nl m d k) = skip_ws k.
Proof. destruct m; [ apply skip_ws_spaces | reflexivity ]. Qed.

Lemma parse_value_skip f s s' : skip_ws s = skip_ws s' -> parse_value f s = parse_value f s'.
Proof. intros H. destruct f; [ reflexivity | ]. cbn [parse_value]. rewrite H. reflexivity. Qed.

Lemma parse_elems_skip f acc s s' : skip_ws s = skip_ws s' -> parse_elems f acc s = parse_elems f acc s'.
Proof.
  intros H. destruct f; [ reflexivity | ]. cbn [parse_elems]. rewrite (parse_value_skip f s s' H). reflexivity.
Qed.

Lemma parse_members_skip f acc s s' : skip_ws s = skip_ws s' -> parse_members f acc s = parse_members f acc s'.
Proof. intros H. destruct f; [ reflexivity | ]. cbn [parse_members]. rewrite H. reflexivity. Qed.

Lemma pr_head m d v k : exists c t, pr m d v k = c :: t /\ is_ws c = false /\ beqb c x5d = false.
Proof.
  destruct v as [ | [|] | z | s | [|x l] | [|[key x] l] ]; cbn [pr enc_string];
    try (eexists; eexists; split; [ reflexivity | split; reflexivity ]).
  destruct (enc_num_head z) as (c & t & E & Hc). destruct (numstart_not_ws_rbrack c Hc) as (Hw & H5).
  rewrite E. exists c, (t ++ k). auto.
Qed.

Lemma skip_ws_pr m d v k : skip_ws (pr m d v k) = pr m d v k.
Proof.
  destruct (pr_head m d v k) as (c & t & E & Hw & _). rewrite E. cbn [skip_ws]. rewrite Hw. reflexivity.
Qed.

Lemma stop_nl m d c k : stop [c] = true -> stop (nl m d (c :: k)) = true.
Proof. destruct m; intros H; [ reflexivity | exact H ]. Qed.

Lemma stop_pr_elems p m d r k : stop (pr_elems p m d r k) = true.
Proof. destruct r; cbn [pr_elems]; [ apply stop_nl | ]; reflexivity. Qed.

Lemma stop_pr_members p m d r k : stop (pr_members p m d r k) = true.
Proof. destruct r as [|[key x] r]; cbn [pr_members]; [ apply stop_nl | ]; reflexivity. Qed.

Lemma parse_members_key f acc key m s :
  valid_utf8b key = true ->
  parse_members (S f) acc (enc_string key (colon m s)) =
  match parse_value f s with
  | None => None
  | Some (v, rest) =>
      match skip_ws rest with
      | [] => None
      | c :: r =>
          if beqb c x2c then parse_members f ((key, v) :: acc) r
          else if beqb c x7d then Some (JObj (rev_append acc [(key, v)]), r)
          else None
      end
  end.
Proof.
  intros Wk. cbn [parse_members enc_string skip_ws is_ws]. rewrite dec_enc_string by exact Wk.
  destruct m; [ rewrite (parse_value_skip f s (x20 :: s) eq_refl) | ]; reflexivity.
Qed.

(* the prefix-parsing statements, with fuel [f], for an arbitrary continuation [rest] that cannot
   extend a number: a value; the elements of an array after its bracket; the members of an object *)
Definition json_rt (f : nat) : Prop :=
  (forall v m d rest, wf_json v = true -> json_size v <= f -> stop rest = true ->
     parse_value f (pr m d v rest) = Some (v, rest)) /\
  (forall x r m d acc rest, wf_json (JArr (x :: r)) = true -> json_size (JArr (x :: r)) <= S f ->
     parse_elems f acc (pr m (S d) x (pr_elems (pr m (S d)) m d r rest))
     = Some (JArr (rev_append acc (x :: r)), rest)) /\
  (forall key x r m d acc rest,
     wf_json (JObj ((key, x) :: r)) = true -> json_size (JObj ((key, x) :: r)) <= S f ->
     parse_members f acc (enc_string key (colon m (pr m (S d) x (pr_members (pr m (S d)) m d r rest))))
     = Some (JObj (rev_append acc ((key, x) :: r)), rest)).

Lemma json_rt_all f : json_rt f.
Proof.
  induction f as [|f (HV & HE & HM)].
  { (* every value has a positive json_size *)
    repeat split; intros; [destruct v|..]; cbn [json_size map] in *; rewrite ?list_sum_cons in *; lia. }
  repeat split.
  - intros v m d rest W Hf Hs.
    destruct v as [ | [|] | z | s | [|x r] | [|[key x] r] ]; try reflexivity.
    + apply parse_value_num. exact Hs.
    + cbn [pr wf_json enc_string parse_value skip_ws is_ws] in *.
      rewrite dec_enc_string by exact W. reflexivity.
    + cbn [pr parse_value skip_ws is_ws]. rewrite skip_ws_nl, skip_ws_pr.
      (* the first element does not start with ']' *)
      destruct (pr_head m (S d) x (pr_elems (pr m (S d)) m d r rest)) as (c & t & E & _ & H5d).
      rewrite E, H5d, <- E. apply HE; assumption.
    + cbn [pr parse_value skip_ws is_ws]. rewrite skip_ws_nl. unfold enc_string at 1. cbn [skip_ws is_ws].
      apply HM; assumption.
  - intros x r m d acc rest W Hf. cbn [wf_json forallb] in W. apply andb_true_iff in W as [Wx Wr].
    cbn [json_size map] in Hf. rewrite list_sum_cons in Hf. cbn [parse_elems].
    rewrite HV; [ | exact Wx | lia | apply stop_pr_elems ]. destruct r as [|y r]; cbn [pr_elems].
    + rewrite skip_ws_nl. reflexivity.
    + cbn [skip_ws is_ws]. rewrite (parse_elems_skip f (x :: acc) _ _ (skip_ws_nl m (S d) _)).
      refine (HE y r m d (x :: acc) rest Wr _). cbn [json_size map] in *. lia.
  - intros key x r m d acc rest W Hf. cbn [wf_json forallb fst snd] in W.
    apply andb_true_iff in W as [W Wr]. apply andb_true_iff in W as [Wk Wx].
    cbn [json_size map snd] in Hf. rewrite list_sum_cons in Hf. rewrite parse_members_key by exact Wk.
    rewrite HV; [ | exact Wx | lia | apply stop_pr_members ]. destruct r as [|[key' y] r]; cbn [pr_members].
    + rewrite skip_ws_nl. reflexivity.
    + cbn [skip_ws is_ws]. rewrite (parse_members_skip f ((key, x) :: acc) _ _ (skip_ws_nl m (S d) _)).
      refine (HM key' y r m d ((key, x) :: acc) rest Wr _). cbn [json_size map snd] in *. lia.
Qed.

(* the general prefix form: an encoded value followed by anything that cannot extend it *)
Theorem parse_value_encode :
  forall v m d f rest,
    wf_json v = true -> length (pr m d v rest) <= f -> stop rest = true ->
    parse_value f (pr m d v rest) = Some (v, rest).
Proof.
  (* the round trip with fuel [json_size v]; then any fuel not below the number of bytes consumed does *)
  intros v m d f rest W Hf Hs. destruct (fuel_all (json_size v)) as (HV & _ & _).
  apply (HV _ _ _ (proj1 (json_rt_all _) v m d rest W (le_n _) Hs)). lia.
Qed.
Print Assumptions parse_value_encode.

Lemma decode_pr m d v : wf_json v = true -> decode (pr m d v []) = Some v.
Proof.
  intros W. unfold decode. rewrite (parse_value_encode v m d _ [] W); [ reflexivity | lia | reflexivity ].
Qed.

Theorem decode_encode : forall v, wf_json v = true -> decode (encode v) = Some v.
Proof. intros v W. apply decode_pr. exact W. Qed.
Print Assumptions decode_encode.

Theorem decode_encode_indent : forall v, wf_json v = true -> decode (encode_indent v) = Some v.
Proof. intros v W. apply decode_pr. exact W. Qed.
Print Assumptions decode_encode_indent.

Corollary encode_injective v1 v2 :
  wf_json v1 = true -> wf_json v2 = true -> encode v1 = encode v2 -> v1 = v2.
Proof.
  intros W1 W2 E. pose proof (decode_encode v1 W1) as D. rewrite E, decode_encode in D by exact W2.
  injection D as D. symmetry. exact D.
Qed.
Print Assumptions encode_injective.
