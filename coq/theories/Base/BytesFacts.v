(* Facts about byte strings: the lines of a concatenation and of a slice (C04), filepath.Ext as a
   suffix test, and strings.TrimSpace and strings.Fields ([trim_space], [fields]; rune-wise, UTF-8
   aware) around ASCII bytes. *)
From CPF Require Import Base.ListFacts Base.Bytes.
From Coq Require Import Arith Lia.

Lemma beqb_true a b : beqb a b = true <-> a = b.
Proof. split; [apply Byte.byte_dec_bl | apply Byte.byte_dec_lb]. Qed.

Lemma beqb_refl a : beqb a a = true.
Proof. apply beqb_true. reflexivity. Qed.

Lemma beqb_sym a b : beqb a b = beqb b a.
Proof. apply eq_true_iff_eq. rewrite !beqb_true. split; congruence. Qed.

Lemma bytes_eqb_true a : forall b, bytes_eqb a b = true <-> a = b.
Proof.
  induction a as [|x a IH]; intros [|y b]; cbn [bytes_eqb]; split; intro H; try reflexivity; try discriminate.
  - apply andb_true_iff in H as [H1 H2]. apply beqb_true in H1. apply IH in H2. congruence.
  - inversion H; subst. apply andb_true_iff. split; [apply beqb_refl | apply IH; reflexivity].
Qed.

Lemma bytes_eqb_refl a : bytes_eqb a a = true.
Proof. apply bytes_eqb_true. reflexivity. Qed.

Lemma has_prefix_true p : forall s, has_prefix p s = true <-> exists q, s = p ++ q.
Proof.
  induction p as [|x p IH]; intros [|y s]; cbn [has_prefix app].
  - split; [exists []; reflexivity | reflexivity].
  - split; [exists (y :: s); reflexivity | reflexivity].
  - split; [discriminate | intros (q & H); discriminate H].
  - rewrite andb_true_iff, beqb_true, IH. split.
    + intros [-> (q & ->)]. exists q. reflexivity.
    + intros (q & H). injection H as -> ->. eauto.
Qed.

Lemma ext_aux_inv m : forall acc e, ext_aux m acc = dot :: e ->
  exists a q, m = a ++ dot :: q /\ e = rev a ++ acc.
Proof.
  induction m as [|x m IH]; intros acc e H; cbn [ext_aux] in H; [discriminate H|].
  destruct (beqb x slash); [discriminate H|]. destruct (beqb x dot) eqn:Ed.
  - apply beqb_true in Ed as ->. injection H as <-. exists [], m. split; reflexivity.
  - destruct (IH _ _ H) as (a & q & -> & ->). exists (x :: a), q. cbn [rev app]. rewrite <- app_assoc.
    split; reflexivity.
Qed.

(* filepath.Ext(name) == ".cql"  iff  strings.HasSuffix(name, ".cql"); no hypothesis on the name
   is needed (".cql" contains no slash) *)
Theorem ext_iff_suffix n : bytes_eqb (path_ext n) ".cql"%bs = true <-> has_suffix ".cql"%bs n = true.
Proof.
  unfold path_ext, has_suffix. change (rev ".cql"%bs) with "lqc."%bs. generalize (rev n). intro m.
  rewrite bytes_eqb_true, has_prefix_true. split.
  - intro H. destruct (ext_aux_inv _ _ _ H) as (a & q & -> & E). rewrite app_nil_r in E.
    apply (f_equal (@rev _)) in E. rewrite rev_involutive in E. subst a. exists q. reflexivity.
  - intros (q & ->). reflexivity.
Qed.
Print Assumptions ext_iff_suffix.

Lemma split_on_nonempty c s : split_on c s <> [].
Proof. destruct s as [|x s]; cbn [split_on]; [discriminate|].
  destruct (beqb x c); [discriminate|]. destruct (split_on c s); discriminate. Qed.

Lemma split_on_cons_ne c x s : beqb x c = false ->
  split_on c (x :: s) = (x :: hd [] (split_on c s)) :: tl (split_on c s).
Proof. intro H. cbn [split_on]. rewrite H. pose proof (split_on_nonempty c s) as N.
  destruct (split_on c s); [contradiction|reflexivity]. Qed.

Lemma split_on_hd_nil c s :
  hd [] (split_on c s) = [] <-> match s with [] => true | y :: _ => beqb y c end = true.
Proof.
  destruct s as [|y s]; [split; reflexivity|]. destruct (beqb y c) eqn:E.
  - cbn [split_on]. rewrite E. split; reflexivity.
  - rewrite split_on_cons_ne by exact E. split; discriminate.
Qed.

Lemma split_on_app c a : forall b,
  split_on c (a ++ b) =
  removelast (split_on c a) ++ (last (split_on c a) [] ++ hd [] (split_on c b)) :: tl (split_on c b).
Proof.
  induction a as [|x a IH]; intro b.
  - cbn. pose proof (split_on_nonempty c b). destruct (split_on c b); [contradiction|reflexivity].
  - cbn [app]. pose proof (split_on_nonempty c a) as N. destruct (beqb x c) eqn:E.
    + cbn [split_on]. rewrite E, IH. destruct (split_on c a); [contradiction | reflexivity].
    + rewrite !split_on_cons_ne, IH by exact E. destruct (split_on c a) as [|p [|q qs]]; [contradiction | |]; reflexivity.
Qed.

Lemma count_nl_app a b : count_nl (a ++ b) = (count_nl a + count_nl b)%N.
Proof. induction a as [|x a IH]; cbn [app count_nl]; [reflexivity|]. rewrite IH. lia. Qed.

Lemma split_on_length s : length (split_on nl s) = S (N.to_nat (count_nl s)).
Proof.
  induction s as [|x s IH]; [reflexivity|].
  cbn [count_nl]. destruct (beqb x nl) eqn:E.
  - cbn [split_on]. rewrite E. cbn [length]. rewrite IH. lia.
  - rewrite split_on_cons_ne by exact E. pose proof (split_on_nonempty nl s) as N.
    destruct (split_on nl s); [contradiction|]. cbn [length tl] in *. lia.
Qed.

Lemma split_on_app_l c a b i x : nth_error (split_on c a) i = Some x ->
  exists y, nth_error (split_on c (a ++ b)) i = Some (x ++ y)
            /\ (S i < length (split_on c a) -> y = []).
Proof.
  rewrite split_on_app. destruct (exists_last (split_on_nonempty c a)) as (l & z & ->).
  rewrite removelast_last, last_last, app_length. intro H.
  destruct (Nat.lt_ge_cases i (length l)) as [L | L].
  - rewrite nth_error_app1 in * by exact L. exists []. rewrite app_nil_r. auto.
  - rewrite nth_error_app2 in * by exact L. destruct (i - length l) as [|[|k]] eqn:D; try discriminate H.
    injection H as <-. eexists. split; [reflexivity|]. cbn [length]. lia.
Qed.

Lemma split_on_app_r c a b i x : nth_error (split_on c b) i = Some x ->
  exists y, nth_error (split_on c (a ++ b)) (length (removelast (split_on c a)) + i) = Some (y ++ x)
            /\ (0 < i -> y = []).
Proof.
  rewrite split_on_app, nth_error_app2, Nat.add_comm, Nat.add_sub by lia.
  destruct (split_on c b) as [|h t]; [destruct i; discriminate|].
  destruct i; cbn [nth_error hd tl]; intro H.
  - injection H as <-. eexists. split; [reflexivity | lia].
  - exists []. auto.
Qed.

(* C04: the i-th line of a snippet sits in line (count_nl pre + i) of the file, which has nothing
   else on it unless that line is the snippet's first or last. *)
Theorem snippet_lines (pre snip post : bytes) (i : nat) (s_i : bytes) :
  nth_error (split_on nl snip) i = Some s_i ->
  exists L a b,
    nth_error (split_on nl (pre ++ snip ++ post)) (N.to_nat (count_nl pre) + i) = Some L
    /\ L = a ++ s_i ++ b
    /\ (0 < i -> a = [])
    /\ (i < N.to_nat (count_nl snip) -> b = []).
Proof.
  intro Hi. destruct (split_on_app_l nl snip post i s_i Hi) as (b & Hb & Eb).
  destruct (split_on_app_r nl pre (snip ++ post) i _ Hb) as (a & Ha & Ea).
  rewrite removelast_length, split_on_length, Nat.sub_succ, Nat.sub_0_r in Ha.
  rewrite split_on_length in Eb. exists (a ++ s_i ++ b), a, b.
  repeat split; [exact Ha | exact Ea | intro; apply Eb; lia].
Qed.

Lemma slice_split (src : bytes) (a b : N) :
  (a <= b)%N -> (b <= N.of_nat (length src))%N ->
  src = firstn (N.to_nat a) src ++ slice src a b ++ skipn (N.to_nat b) src.
Proof.
  intros Hab Hb. unfold slice.
  rewrite <- (firstn_skipn (N.to_nat a) src) at 1. f_equal.
  set (r := skipn (N.to_nat a) src).
  rewrite <- (firstn_skipn (N.to_nat (b - a)) r) at 1. f_equal.
  unfold r. rewrite skipn_skipn_add. f_equal. lia.
Qed.

Lemma join_cons sep x l : l <> [] -> join sep (x :: l) = x ++ sep ++ join sep l.
Proof. destruct l; [congruence | reflexivity]. Qed.

Lemma join_split_on c s : join [c] (split_on c s) = s.
Proof.
  induction s as [|x s IH]; [reflexivity|].
  pose proof (split_on_nonempty c s) as N. destruct (beqb x c) eqn:E.
  - cbn [split_on]. rewrite E, join_cons, IH by exact N. apply beqb_true in E. subst. reflexivity.
  - rewrite split_on_cons_ne by exact E. destruct (split_on c s) as [|p [|q qs]]; [congruence | |];
      cbn [hd tl join app] in *; rewrite IH; reflexivity.
Qed.

Lemma ascii_space_ascii c : ascii_space c = true -> (code c <? 128)%N = true.
Proof. apply implb_true_iff. destruct c; reflexivity. Qed.

Lemma in_range_ascii lo hi c : (code c <? 128)%N = true -> (128 <= lo)%N -> in_range lo hi c = false.
Proof.
  unfold in_range. intros H Hlo. apply N.ltb_lt in H.
  apply andb_false_iff. left. apply N.leb_gt. lia.
Qed.

Lemma rune_width_bounds b r : 1 <= rune_width (b :: r) <= length (b :: r).
Proof.
  unfold rune_width.
  repeat match goal with
         | |- context [if ?c then _ else _] => destruct c
         | |- context [match ?l with [] => _ | _ :: _ => _ end] => destruct l
         end; cbn [length]; lia.
Qed.

(* an ASCII byte fails every test on a continuation byte: where [c] stands among the bytes looked at
   the width is 1, as it is for the string that ends before it *)
Lemma rune_width_app b r c t : (code c <? 128)%N = true ->
  rune_width (b :: r ++ c :: t) = rune_width (b :: r).
Proof.
  intro Hc. pose proof (fun lo hi => in_range_ascii lo hi c Hc) as C.
  unfold rune_width, is_cont. destruct (code b <? 128)%N; [reflexivity|].
  destruct r as [|b1 [|b2 [|b3 r]]]; cbn [app]; rewrite ?C, ?andb_false_r by discriminate;
    repeat match goal with |- context [if ?x then _ else _] => destruct x end; try reflexivity;
    destruct t as [|? [|? ?]]; reflexivity.
Qed.

Lemma space_width_ascii b r : (code b <? 128)%N = true ->
  space_width (b :: r) = if ascii_space b then Some 1 else None.
Proof. intro H. unfold space_width. rewrite H. reflexivity. Qed.

(* the first [w] bytes of [s] encode a white-space rune: [w] is the width UTF-8 decoding gives
   them, and [space_width] looks at nothing else *)
Definition space_rune (s : bytes) (w : nat) : Prop :=
  rune_width s = w /\ forall q, space_width (firstn w s ++ q) = Some w.

(* by enumeration of the table in [space_width]: the lead byte, the second byte after the four
   non-ASCII leads, the third after the four two-byte prefixes *)
Lemma space_width_inv s w : space_width s = Some w -> space_rune s w.
Proof.
  assert (R1 : forall b r, ascii_space b = true -> space_rune (b :: r) 1).
  { intros b r H. pose proof (ascii_space_ascii b H) as Ha. split; [unfold rune_width; rewrite Ha; reflexivity|].
    intro q. cbn [firstn app]. rewrite space_width_ascii, H by exact Ha. reflexivity. }
  assert (R : forall e r, (forall q, rune_width (e ++ q) = length e) ->
                          (forall q, space_width (e ++ q) = Some (length e)) -> space_rune (e ++ r) (length e)).
  { intros e r Hw Hq. unfold space_rune. rewrite firstn_app, Nat.sub_diag, firstn_all, app_nil_r. auto. }
  enough (match space_width s with Some w => space_rune s w | None => True end) as H
    by (intro E; rewrite E in H; exact H).
  destruct s as [|b0 r]; [exact I|].
  destruct b0; try exact I; try (apply R1; reflexivity);
    (destruct r as [|b1 r]; [exact I|]); destruct b1; try exact I;
    try (apply (R [_; _]); reflexivity);
    (destruct r as [|b2 r]; [exact I|]); destruct b2; try exact I;
    apply (R [_; _; _]); reflexivity.
Qed.

Lemma space_width_local s s' w : space_width s = Some w -> firstn w s' = firstn w s ->
  space_width s' = Some w.
Proof. intros E H. rewrite <- (firstn_skipn w s'), H. apply (space_width_inv _ _ E). Qed.

Lemma space_width_app b r c t : (code c <? 128)%N = true ->
  space_width (b :: r ++ c :: t) = space_width (b :: r).
Proof.
  intro Hc.
  (* a white-space rune of either string has the width decoding gives it, which ends before [c] *)
  assert (Fst : forall s w, space_width s = Some w -> rune_width s = rune_width (b :: r) ->
                            firstn w (b :: r ++ c :: t) = firstn w (b :: r)).
  { intros s w E Ew. apply space_width_inv in E as [<- _]. rewrite Ew.
    change (b :: r ++ c :: t) with ((b :: r) ++ c :: t). rewrite firstn_app.
    replace (_ - _) with 0 by (pose proof (rune_width_bounds b r); lia). apply app_nil_r. }
  destruct (space_width (b :: r)) as [w|] eqn:E.
  - exact (space_width_local _ _ _ E (Fst _ _ E eq_refl)).
  - destruct (space_width (b :: r ++ c :: t)) as [w|] eqn:E'; [|reflexivity].
    rewrite <- E. symmetry. apply (space_width_local _ _ _ E'). symmetry.
    exact (Fst _ _ E' (rune_width_app b r c t Hc)).
Qed.

Definition spaceb (s : bytes) : bool := if space_width s then true else false.

Lemma runes_f_S f b r :
  runes_f (S f) (b :: r) =
  (spaceb (b :: r), firstn (rune_width (b :: r)) (b :: r))
    :: runes_f f (skipn (rune_width (b :: r)) (b :: r)).
Proof.
  unfold spaceb. cbn [runes_f].
  destruct (space_width (b :: r)) as [w|] eqn:E; [apply space_width_inv in E as [<- _]|]; reflexivity.
Qed.

Lemma skipn_width_len b r : length (skipn (rune_width (b :: r)) (b :: r)) < length (b :: r).
Proof. pose proof (rune_width_bounds b r). rewrite skipn_length. cbn [length] in *. lia. Qed.

Lemma runes_f_fuel : forall f1 f2 s, length s <= f1 -> length s <= f2 -> runes_f f1 s = runes_f f2 s.
Proof.
  induction f1 as [|f1 IH]; intros [|f2] [|b r] H1 H2; try reflexivity; try (cbn in H1, H2; lia).
  rewrite !runes_f_S. f_equal. pose proof (skipn_width_len b r). apply IH; cbn [length] in *; lia.
Qed.

Lemma runes_cons b r :
  runes (b :: r) =
  (spaceb (b :: r), firstn (rune_width (b :: r)) (b :: r)) :: runes (skipn (rune_width (b :: r)) (b :: r)).
Proof.
  unfold runes. cbn [length]. rewrite runes_f_S. f_equal.
  pose proof (skipn_width_len b r). apply runes_f_fuel; cbn [length] in *; lia.
Qed.

Lemma runes_ind (P : list byte -> Prop) :
  P [] -> (forall b r, P (skipn (rune_width (b :: r)) (b :: r)) -> P (b :: r)) -> forall s, P s.
Proof.
  intros H0 HS s. generalize (le_n (length s)). generalize (length s) at 2. intro n. revert s.
  induction n as [|n IH]; intros [|b r] Hn; try exact H0; [cbn in Hn; lia|].
  apply HS, IH. pose proof (skipn_width_len b r). cbn [length] in *. lia.
Qed.

Lemma runes_ascii c t : (code c <? 128)%N = true -> runes (c :: t) = (ascii_space c, [c]) :: runes t.
Proof.
  intro H. rewrite runes_cons. unfold spaceb, rune_width. rewrite space_width_ascii, H by exact H.
  destruct (ascii_space c); reflexivity.
Qed.

Lemma runes_snoc s c t : (code c <? 128)%N = true ->
  runes (s ++ c :: t) = runes s ++ (ascii_space c, [c]) :: runes t.
Proof.
  intro Hc. induction s as [|b r IH] using runes_ind; [apply runes_ascii, Hc|].
  cbn [app]. rewrite (runes_cons b (r ++ c :: t)), (runes_cons b r). unfold spaceb.
  rewrite rune_width_app, space_width_app by exact Hc.
  pose proof (rune_width_bounds b r) as Hb. set (w := rune_width (b :: r)) in *.
  change (b :: r ++ c :: t) with ((b :: r) ++ c :: t). rewrite firstn_app, skipn_app.
  replace (w - length (b :: r)) with 0 by lia. cbn [firstn skipn]. rewrite app_nil_r, IH. reflexivity.
Qed.

Definition unrunes (l : list (bool * bytes)) : bytes := concat (map snd l).

Lemma unrunes_app a b : unrunes (a ++ b) = unrunes a ++ unrunes b.
Proof. unfold unrunes. rewrite map_app. apply concat_app. Qed.

Lemma unrunes_runes s : unrunes (runes s) = s.
Proof.
  induction s as [|b r IH] using runes_ind; [reflexivity|].
  rewrite runes_cons. unfold unrunes in *. cbn [map concat snd]. rewrite IH. apply firstn_skipn.
Qed.

Lemma unrunes_nil s l : incl l (runes s) -> unrunes l = [] -> l = [].
Proof.
  intros Hl. destruct l as [|p l]; [reflexivity|]. intro E. exfalso.
  apply app_eq_nil in E as [E _]. specialize (Hl p (or_introl eq_refl)). clear l.
  induction s as [|b r IH] using runes_ind; [exact Hl|].
  rewrite runes_cons in Hl. destruct Hl as [<- | Hl]; [|exact (IH Hl)].
  pose proof (rune_width_bounds b r). cbn [snd] in E. destruct (rune_width (b :: r)); [lia | discriminate E].
Qed.

Definition rtrim (l : list (bool * bytes)) := rev (drop_while_space (rev l)).

Lemma trim_space_eq s : trim_space s = unrunes (rtrim (drop_while_space (runes s))).
Proof. reflexivity. Qed.

Lemma trim_space_ws_cons c s : ascii_space c = true -> trim_space (c :: s) = trim_space s.
Proof. intro Hc. rewrite !trim_space_eq, runes_ascii, Hc by (apply ascii_space_ascii, Hc). reflexivity. Qed.

Lemma rtrim_dws_snoc_space l u :
  rtrim (drop_while_space (l ++ [(true, u)])) = rtrim (drop_while_space l).
Proof.
  induction l as [|[[|] w] l IH]; [reflexivity | exact IH |].
  cbn [app drop_while_space]. unfold rtrim. rewrite app_comm_cons, rev_unit. reflexivity.
Qed.

Lemma trim_space_app_ws s ws : forallb ascii_space ws = true -> trim_space (s ++ ws) = trim_space s.
Proof.
  revert s. induction ws as [|c ws IH]; intros s H; [rewrite app_nil_r; reflexivity|].
  apply andb_prop in H as [Hc Hws].
  change (s ++ c :: ws) with (s ++ [c] ++ ws). rewrite app_assoc, (IH _ Hws), !trim_space_eq.
  rewrite runes_snoc, Hc by (apply ascii_space_ascii, Hc). apply f_equal, rtrim_dws_snoc_space.
Qed.

Lemma dws_suffix l : exists pre, l = pre ++ drop_while_space l.
Proof.
  induction l as [|[[|] w] l IH]; [exists []; reflexivity | | exists []; reflexivity].
  destruct IH as (pre & E). exists ((true, w) :: pre). cbn [app drop_while_space]. rewrite <- E. reflexivity.
Qed.

Lemma rtrim_prefix l : exists post, l = rtrim l ++ post.
Proof.
  unfold rtrim. destruct (dws_suffix (rev l)) as (pre & E). exists (rev pre).
  rewrite <- rev_app_distr, <- E. symmetry. apply rev_involutive.
Qed.

Lemma dws_hd l : fst (hd (false, []) (drop_while_space l)) = false.
Proof. induction l as [|[[|] w] l IH]; [reflexivity | exact IH | reflexivity]. Qed.

Lemma dws_id l : fst (hd (false, []) l) = false -> drop_while_space l = l.
Proof. destruct l as [|[[|] w] l]; [reflexivity | discriminate | reflexivity]. Qed.

Lemma rtrim_last l : fst (last (rtrim l) (false, [])) = false.
Proof. unfold rtrim. rewrite last_rev. apply dws_hd. Qed.

Lemma rtrim_id l : fst (last l (false, [])) = false -> rtrim l = l.
Proof.
  intro H. unfold rtrim. rewrite dws_id; [apply rev_involutive|].
  rewrite <- last_rev, rev_involutive. exact H.
Qed.

Lemma trimmed_iff s :
  trim_space s = s <->
  fst (hd (false, []) (runes s)) = false /\ fst (last (runes s) (false, [])) = false.
Proof.
  split.
  - (* what is trimmed away at either side has no bytes, hence no runes *)
    intro H. destruct (dws_suffix (runes s)) as (pre & E1).
    destruct (rtrim_prefix (drop_while_space (runes s))) as (post & E2).
    assert (E : unrunes (runes s) = unrunes pre ++ s ++ unrunes post).
    { rewrite E1, E2 at 1. rewrite !unrunes_app, <- trim_space_eq, H. reflexivity. }
    rewrite unrunes_runes in E. apply (f_equal (@length _)) in E. rewrite !app_length in E.
    assert (pre = []) as ->.
    { apply (unrunes_nil s); [|destruct (unrunes pre); [reflexivity | cbn [length] in E; lia]].
      rewrite E1. apply incl_appl, incl_refl. }
    assert (post = []) as ->.
    { apply (unrunes_nil s); [|destruct (unrunes post); [reflexivity | cbn [length] in E; lia]].
      rewrite E1, E2. apply incl_appr, incl_appr, incl_refl. }
    rewrite app_nil_r in E2. cbn [app] in E1. rewrite <- E1 in E2.
    split; [rewrite E1; apply dws_hd | rewrite E2; apply rtrim_last].
  - intros [H1 H2]. rewrite trim_space_eq, (dws_id _ H1), (rtrim_id _ H2). apply unrunes_runes.
Qed.

(* the bytes that are a rune of their own wherever they stand and that trimming keeps *)
Definition nonspace (c : byte) : bool := (code c <? 128)%N && negb (ascii_space c).

Lemma nonspace_true c : nonspace c = true <-> (code c <? 128)%N = true /\ ascii_space c = false.
Proof. unfold nonspace. rewrite andb_true_iff, negb_true_iff. reflexivity. Qed.

Lemma runes_nonspace c t : nonspace c = true -> runes (c :: t) = (false, [c]) :: runes t.
Proof. intro H. apply nonspace_true in H as [Hc Hs]. rewrite runes_ascii, Hs by exact Hc. reflexivity. Qed.

Lemma trimmed_app c m d v :
  nonspace c = true -> (code d <? 128)%N = true ->
  trim_space v = v -> v <> [] -> trim_space (c :: m ++ d :: v) = c :: m ++ d :: v.
Proof.
  intros Hc Hd Hv Hne. apply trimmed_iff. split; [rewrite runes_nonspace by exact Hc; reflexivity|].
  apply trimmed_iff in Hv as [_ Hv]. rewrite app_comm_cons, runes_snoc, last_app by (exact Hd || discriminate).
  destruct v as [|b r]; [congruence|]. rewrite runes_cons in *. exact Hv.
Qed.

Lemma trimmed_ends s : nonspace (hd x20 s) = true -> nonspace (last s x20) = true -> trim_space s = s.
Proof.
  destruct s as [|c m]; [reflexivity|]. intros Hc Hl. apply trimmed_iff.
  split; [rewrite runes_nonspace by exact Hc; reflexivity|].
  rewrite (app_removelast_last x20 (l := c :: m)) in * by discriminate. rewrite last_last in Hl.
  apply nonspace_true in Hl as [Ha Hs]. rewrite runes_snoc, Hs, last_last by exact Ha. reflexivity.
Qed.

(* strings.TrimRight(s, white space), in the manner of [trim_space] *)
Definition trim_right (s : bytes) : bytes := unrunes (rtrim (runes s)).

Lemma rtrim_cons_false w l : rtrim ((false, w) :: l) = (false, w) :: rtrim l.
Proof.
  unfold rtrim. cbn [rev].
  assert (D : forall x y, drop_while_space (x ++ (false, w) :: y) = drop_while_space x ++ (false, w) :: y).
  { induction x as [|[[|] u] x IH]; intro y; [reflexivity | apply IH | reflexivity]. }
  rewrite D, rev_app_distr. reflexivity.
Qed.

Lemma trim_space_nonspace c m : nonspace c = true -> trim_space (c :: m) = c :: trim_right m.
Proof. intro Hc. rewrite trim_space_eq, runes_nonspace by exact Hc. cbn [drop_while_space]. rewrite rtrim_cons_false. reflexivity. Qed.

Lemma trim_right_nonspace c m : nonspace c = true -> trim_right (c :: m) = c :: trim_right m.
Proof. intro Hc. unfold trim_right. rewrite runes_nonspace, rtrim_cons_false by exact Hc. reflexivity. Qed.

Lemma trim_right_prefix s : exists z, s = trim_right s ++ z.
Proof.
  destruct (rtrim_prefix (runes s)) as (post & E). exists (unrunes post).
  unfold trim_right. rewrite <- unrunes_app, <- E. symmetry. apply unrunes_runes.
Qed.

Lemma fields_aux_word w t : forall cur incur,
  forallb nonspace w = true -> w <> [] ->
  fields_aux (runes (w ++ t)) cur incur = fields_aux (runes t) (cur ++ w) true.
Proof.
  induction w as [|b w IH]; intros cur incur Hw Hne; [congruence|].
  apply andb_prop in Hw as [Hb Hw]. cbn [app]. rewrite runes_nonspace by exact Hb. cbn [fields_aux].
  destruct w as [|b' w']; [reflexivity|].
  rewrite IH by (exact Hw || discriminate). rewrite <- app_assoc. reflexivity.
Qed.

Lemma fields_join_words ws :
  Forall (fun w => w <> [] /\ forallb nonspace w = true) ws -> fields (join [x20] ws) = ws.
Proof.
  unfold fields. induction 1 as [|w r [Hne Hw] _ IH]; [reflexivity|]. destruct r as [|w' r'].
  - rewrite <- (app_nil_r w) at 1. cbn [join]. rewrite fields_aux_word by assumption. reflexivity.
  - rewrite join_cons, fields_aux_word by (assumption || discriminate). cbn [app].
    rewrite runes_ascii by reflexivity. cbn [fields_aux]. rewrite IH. reflexivity.
Qed.

(* the bytes of a multi-byte rune after the first are >= 0x80: an ASCII byte among them would
   end the rune before it *)
Lemma rune_width_cont b0 r1 c t n :
  rune_width (b0 :: r1 ++ c :: t) = n -> (S (length r1) <? n) = true -> (code c <? 128)%N = false.
Proof.
  intros <- H. apply Nat.ltb_lt in H. destruct (code c <? 128)%N eqn:E; [|reflexivity].
  rewrite (rune_width_app _ _ _ _ E) in H. pose proof (rune_width_bounds b0 r1). cbn [length] in *. lia.
Qed.
