(* C08 — what is reported for a file depends only on that file. *)
From CPF Require Import Base.Bytes Scan.BuildFacts Scan.Merge Scan.MergeFacts.
From CPF Require Import Scan.PoolSkel Scan.SkelSem Scan.SkelSim.
From CPF.gen Require Import Tables.
From Coq Require Import List Permutation.

(* the per-file graph is a function of (path, bytes, tree) alone: build_file takes nothing else.
   In the project graph, the entities and links of one file are exactly its own per-file graph,
   whatever the other per-file graphs are (absent, copies, malformed, ...) and in whatever order
   they arrive *)
Theorem C08_isolation : forall (A E : Type) (ls1 ls2 : list (lgraph A E)) (l : lgraph A E),
  keys_distinct A E (ls1 ++ l :: ls2) ->
  exists others_n others_e,
    Permutation (fst (collect (ls1 ++ l :: ls2))) (fst l ++ others_n)
    /\ Permutation (snd (collect (ls1 ++ l :: ls2))) (snd l ++ others_e)
    /\ others_n = concat (List.map fst (ls1 ++ ls2)) /\ others_e = concat (List.map snd (ls1 ++ ls2)).
Proof. intros A E ls1 ls2 l H. do 2 eexists. repeat split; [apply collect_isolation, H..]. Qed.
Print Assumptions C08_isolation.

(* file discovery: exactly the regular files with extension .java below readable directories; an
   unreadable directory contributes nothing and hides nothing else (walk_in is compositional) *)
Theorem C08_discovery : forall n dir,
  walk_in dir n = filter (fun p => bytes_eqb (path_ext p) ".java"%bs) (files_in dir n).
Proof. exact walk_java_only. Qed.
Print Assumptions C08_discovery.

Theorem C08_unreadable_dir_hides_only_itself : forall dir name kids before after,
  flat_map (walk_in dir) (before ++ FDir name false kids :: after)
  = flat_map (walk_in dir) (before ++ after).
Proof.
  intros. rewrite !flat_map_app. cbn [flat_map walk_in app]. reflexivity.
Qed.
Print Assumptions C08_unreadable_dir_hides_only_itself.

(* the worker loop that gives every file its own parser state, local graph and error exits is the one
   Scan/Pool.v and the per-file model describe: one `range` over the file channel, the hook, readFile and
   ParseCtx as the only error exits (each a plain `continue`), one call of buildGraphFromAST, then the sends
   -- nothing else between them (regenerated from graph.Initialize on every run, Scan/PoolSkel.v) *)
Theorem C08_worker_loop : pool_program = pool_program_modelled.
Proof. exact pool_program_matches. Qed.
Print Assumptions C08_worker_loop.

(* ... and under the generic channel semantics of that program (Scan/SkelSem.v, Scan/SkelSim.v) whether a file's
   graph reaches the collector depends on that file alone: in every finished execution, whatever the scheduler did
   and whichever OTHER files could not be read or parsed, the graphs merged are those of the files that are
   themselves readable, each exactly once *)
Theorem C08_program_failures_isolated : forall (files : list nat) (fails : bytes -> nat -> bool) s,
  NoDup files -> sreach files fails s -> finished s = true ->
  NoDup (s_merged s) /\ (forall f, In f (s_merged s) <-> In f files /\ SkelSim.readable fails f = true).
Proof. exact skel_finished_exactly_once. Qed.
Print Assumptions C08_program_failures_isolated.
