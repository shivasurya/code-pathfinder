(* C04 — reported file, line and snippet always denote real source text.
   The model is Scan/Build.v (tied to graph/construct.go by the correspondence check); cst_wfb is the
   checked assumption about tree-sitter. *)
From CPF Require Import Base.Bytes Base.BytesFacts Scan.Cst Scan.Build Scan.BuildFacts Engine.Render Engine.RenderFacts.

(* every entity produced from ANY bytes and ANY well-formed tree over them: the reported file is
   the scanned path; the snippet occurs in the file, starting on the reported 1-based line *)
Theorem C04_location : forall path src t g k e,
  cst_wfb src t = true -> build_file path src t = Ok g -> In (k, e) (g_nodes g) ->
  n_file e = path
  /\ exists pre post, src = pre ++ n_snippet e ++ post /\ n_line e = (count_nl pre + 1)%N.
Proof. exact build_file_location. Qed.
Print Assumptions C04_location.

(* line by line: the i-th line of the snippet is (part of) line [line + i] of the file; the lines
   strictly inside a multi-line snippet are whole file lines *)
Theorem C04_lines : forall pre snip post i s_i,
  nth_error (split_on nl snip) i = Some s_i ->
  exists L a b,
    nth_error (split_on nl (pre ++ snip ++ post)) (N.to_nat (count_nl pre) + i) = Some L
    /\ L = a ++ s_i ++ b
    /\ (0 < i -> a = [])
    /\ (i < N.to_nat (count_nl snip) -> b = []).
Proof. exact snippet_lines. Qed.
Print Assumptions C04_lines.

(* non-vacuity: a two-line snippet "c\nd" inside the file "a\nbc\nde\nf" starts on line 2 *)
Example C04_example :
  let src := ([x61; nl; x62; x63; nl; x64; x65; nl; x66])%list in
  let snip := ([x63; nl; x64])%list in
  exists pre post, src = pre ++ snip ++ post /\ (count_nl pre + 1)%N = 2%N
  /\ nth_error (split_on nl src) 1 = Some [x62; x63] /\ nth_error (split_on nl src) 2 = Some [x64; x65].
Proof. exists [x61; nl; x62], [x65; nl; x66]. repeat split. Qed.

(* text mode (cmd/query.go: the numbered snippet lines): the i-th line of an entity's snippet is printed
   next to the number [line + i], and that text is (part of) line number [line + i] of the scanned file;
   lines strictly inside the snippet are whole file lines.  [numbered_lines] is the rendering compared
   byte for byte with the real text report (Engine/Render.v). *)
Theorem C04_text_numbering : forall path src t g k e i s_i,
  cst_wfb src t = true -> build_file path src t = Ok g -> In (k, e) (g_nodes g) ->
  nth_error (split_on nl (n_snippet e)) i = Some s_i ->
  nth_error (numbered_lines e) i = Some (numbered (n_line e + N.of_nat i) s_i)
  /\ exists L a b,
       nth_error (split_on nl src) (N.to_nat (n_line e + N.of_nat i) - 1) = Some L
       /\ L = a ++ s_i ++ b
       /\ (0 < i -> a = [])
       /\ (i < N.to_nat (count_nl (n_snippet e)) -> b = []).
Proof. exact text_numbering. Qed.
Print Assumptions C04_text_numbering.
