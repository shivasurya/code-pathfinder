(* C09 — any file content can be scanned without crashing; work is at most quadratic.
   tree-sitter's own parser (C code) is outside the model: it enters as the tree. *)
From CPF Require Import Base.Bytes Scan.Build Scan.BuildFacts.
From CPF Require Import Scan.PoolSkel.
From CPF.gen Require Import Tables.

(* Crash part: the builder's only abort sites are the unchecked dereferences that shape_okb lists
   (assert/yield child 1; binary left/right/operator; class name; first child of each element of an
   `argument_list`-named field).  For ANY path, ANY bytes and ANY tree that has these children, a
   graph is produced.  The harness evaluates shape_okb on every tree tree-sitter yields for
   malformed input and runs the real builder where it is false. *)
Theorem C09_total : forall path src t,
  shape_okb t = true -> exists g, build_file path src t = Ok g.
Proof. exact build_file_total. Qed.
Print Assumptions C09_total.

(* ... and whatever is produced satisfies the location guarantee (C04) *)
Theorem C09_location : forall path src t g k e,
  cst_wfb src t = true -> build_file path src t = Ok g -> In (k, e) (g_nodes g) ->
  n_file e = path
  /\ exists pre post, src = pre ++ n_snippet e ++ post /\ n_line e = (count_nl pre + 1)%N.
Proof. exact build_file_location. Qed.
Print Assumptions C09_location.

(* Cost part: visits + bytes copied + the (single) declaration/call matching pass are bounded by
   8 (|tree| + |file|)^2 *)
Theorem C09_quadratic : forall path src t g,
  cst_wfb src t = true -> build_file path src t = Ok g ->
  work t g <= 8 * (cst_size t + length src) * (cst_size t + length src).
Proof. exact build_file_work. Qed.
Print Assumptions C09_quadratic.

(* what surrounds the builder in a worker (the parser's configuration and the two error exits) is the loop the
   model describes: nothing but readFile / ParseCtx can skip a file, nothing else is called on the parser
   between files (regenerated from graph.Initialize on every run, Scan/PoolSkel.v) *)
Theorem C09_worker_loop : pool_program = pool_program_modelled.
Proof. exact pool_program_matches. Qed.
Print Assumptions C09_worker_loop.
