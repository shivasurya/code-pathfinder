(* C20 — hosted ruleset bundles round-trip the rules directory. *)
From CPF Require Import Base.Bytes Base.BytesFacts Base.Json Base.JsonFacts Cli.Ci Cli.CiFacts.
Open Scope bs_scope.

(* bundling a flat directory with gen-script (json.MarshalIndent) and loading the bundle the way
   `ci --ruleset cpf/<name>` does yields exactly the rule texts loading the directory yields: same
   list, byte-identical, for any names and any valid-UTF-8 contents *)
Theorem C20_roundtrip : forall dirname entries,
  valid_utf8b dirname = true ->
  (forall n c, In (n, c) entries -> valid_utf8b n = true /\ valid_utf8b c = true) ->
  forall body, produce dirname entries = Some body -> consume body = Some (load_local entries).
Proof. intros d es Hd He. apply bundle_roundtrip; [exact Hd|]. intros n c Hin _. exact (He n c Hin). Qed.
Print Assumptions C20_roundtrip.

(* the two selection predicates agree: filepath.Ext(n) == ".cql" (bundler) iff HasSuffix(n, ".cql") (loader) *)
Theorem C20_selection_agrees : forall n,
  bytes_eqb (path_ext n) ".cql" = true <-> has_suffix ".cql" n = true.
Proof. exact ext_iff_suffix. Qed.
Print Assumptions C20_selection_agrees.

(* a directory without .cql files yields no bundle at all (outside the round trip's domain) *)
Theorem C20_no_bundle : forall d es,
  produce d es = None <-> (forall n c, In (n, c) es -> is_cql n = false).
Proof. exact produce_none_iff. Qed.
Print Assumptions C20_no_bundle.
