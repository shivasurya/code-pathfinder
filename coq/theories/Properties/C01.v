(* C01 — no missed matches: every combination satisfying WHERE is reported.
   Specification: [spec_results] — conditions are boolean combinations of atoms and predicate
   calls, a call evaluates the predicate's body with its formals bound to what the arguments denote
   (the entity of an alias, the value of a string / number literal).
   Implementation model: [results] — candidates are the cross product of the entities of each
   FROM kind (no narrowing), the condition is the predicate-expanded expression ([inline], whose
   text [emit] is compared byte for byte with parser.ExpandedCondition), evaluated by the
   expr-lang model. *)
From CPF Require Import Engine.Query Engine.QueryFacts.

(* expansion by substitution implements call-by-binding, for any nesting depth of connectives,
   any number of declarations, any graph: per tuple ... *)
Theorem C01_accepts_what_spec_accepts : forall q t,
  wf_query q = true -> spec_accepted q t <> Unknown -> static_ok q t ->
  accepted q t = spec_accepted q t.
Proof. exact accepted_refines_spec. Qed.
Print Assumptions C01_accepts_what_spec_accepts.

(* ... hence every combination of entities of the requested kinds (in the graph, in FROM order)
   that makes WHERE true is reported *)
Theorem C01_complete : forall q g t,
  wf_query q = true ->
  (forall t, In t (candidates q g) -> spec_accepted q t <> Unknown /\ static_ok q t) ->
  Forall2 (fun n ka => n_type n = fst ka /\ In n g) t (q_from q) ->
  spec_accepted q t = Accept ->
  In t (results q g).
Proof.
  intros q g t Hwf Hfrag Hcand Hacc.
  apply candidates_iff in Hcand. apply results_iff. split; [exact Hcand|].
  destruct (Hfrag t Hcand) as [Hu Hs]. rewrite (accepted_refines_spec q t Hwf Hu Hs). exact Hacc.
Qed.
Print Assumptions C01_complete.

(* the text handed to the evaluator is the print of the expanded AST the model evaluates *)
Theorem C01_condition_text : forall q,
  expanded_condition q = match condition q with Some c => join " "%bs (xprint c) | None => [] end.
Proof. exact expanded_condition_inline. Qed.
Print Assumptions C01_condition_text.
