(* C17 — CI reports conserve per-rule findings and survive a bad rule.
   Cli/Ci.v models the ci loop as a map over rule texts; that the real command is such a map (no
   state carried between rules, no abort on a failing rule) is what the campaign checks against
   real `pathfinder ci` runs. *)
From CPF Require Import Base.Bytes Cli.Rules Cli.Ci Cli.CiFacts Engine.Process.
Open Scope bs_scope.

(* the entry of each rule is its extracted query, its metadata and the stand-alone result *)
Theorem C17_json_conserves : forall rules g,
  ci_run rules g = List.map (fun text => {| e_rule := parse_ci text;
                                            e_outcome := process_query (r_query (parse_ci text)) g |}) rules.
Proof. exact ci_run_conserves. Qed.
Print Assumptions C17_json_conserves.

(* a failing rule changes nothing about the entries of the others *)
Theorem C17_isolation : forall rs1 bad rs2 g,
  ci_run (rs1 ++ bad :: rs2) g = ci_run rs1 g ++ ci_run [bad] g ++ ci_run rs2 g.
Proof. exact ci_isolation. Qed.
Print Assumptions C17_isolation.

(* SARIF: one result per finding with the finding's file and line, the rule's id, its lower-cased
   severity as level and its description as message *)
Theorem C17_sarif_fields : forall e s,
  In s (sarif_of_entry e) ->
  s_rule s = r_id (e_rule e) /\ s_level s = to_lower (r_severity (e_rule e)) /\
  s_message s = r_desc (e_rule e) /\
  exists n, In n (findings (e_outcome e)) /\ s_file s = n_file n /\ s_line s = n_line n.
Proof. exact sarif_fields. Qed.
Print Assumptions C17_sarif_fields.

Theorem C17_sarif_one_per_finding : forall e, length (sarif_of_entry e) = length (findings (e_outcome e)).
Proof. exact sarif_length. Qed.
Print Assumptions C17_sarif_one_per_finding.

Theorem C17_sarif_bad_rule : forall rs1 bad rs2 g,
  process_query (r_query (parse_ci bad)) g = SyntaxError ->
  ci_sarif (rs1 ++ bad :: rs2) g = ci_sarif (rs1 ++ rs2) g.
Proof. intros rs1 bad rs2 g H. apply sarif_bad_rule. rewrite H. reflexivity. Qed.
Print Assumptions C17_sarif_bad_rule.

Theorem C17_placement : forall ws f,
  report_path true ws f = ws ++ "/" ++ f /\ report_path false ws f = f.
Proof. exact report_path_spec. Qed.
Print Assumptions C17_placement.
