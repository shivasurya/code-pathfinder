(* C06 — call, expression and statement attributes mirror the source.  Same scheme as C05. *)
From CPF Require Import Base.Bytes Scan.Cst Scan.Build Scan.Decode Scan.DecodeFacts gen.Tables.
Open Scope bs_scope.

(* the 19 Java binary operators map to the documented operator-specific kinds (finite statement over
   the operator table the translator regenerates from construct.go on every run) *)
Theorem C06_operator_kinds :
  List.map (fun op => binop_kind op)
       ["+"; "-"; "*"; "/"; ">"; "<"; ">="; "<="; "%"; ">>"; "<<"; "!="; "=="; "&"; "&&"; "||"; "|"; ">>>"; "^"]
     = [Some "add_expression"; Some "sub_expression"; Some "mul_expression"; Some "div_expression";
        Some "comp_expression"; Some "comp_expression"; Some "comp_expression"; Some "comp_expression";
        Some "rem_expression"; Some "right_shift_expression"; Some "left_shift_expression";
        Some "ne_expression"; Some "eq_expression"; Some "bitwise_and_expression";
        Some "and_expression"; Some "or_expression"; Some "bitwise_or_expression";
        Some "bitwise_right_shift_expression"; Some "bitwise_xor_expression"].
Proof. exact (proj2 (proj2 binop_kind_table)). Qed.
Print Assumptions C06_operator_kinds.

Theorem C06_binary : forall src file prev n,
  binary_shape n = true ->
  exists es, entities_of src file prev n = Ok es
    /\ List.map n_type es = binary_kinds n
    /\ Forall (fun e => n_bin e = binary_spec src n) es
    /\ (length es = 2 \/ length es = 1).
Proof. exact binary_decoded. Qed.
Print Assumptions C06_binary.

Theorem C06_call : forall src file prev n,
  call_shape n = true -> call_side src n = true ->
  exists e, entities_of src file prev n = Ok [e]
    /\ n_type e = "method_invocation"
    /\ n_name e = call_name_spec src n
    /\ n_argv e = call_args_spec src n.
Proof. exact call_decoded. Qed.
Print Assumptions C06_call.

Theorem C06_new : forall src file prev n,
  new_shape n = true ->
  exists e, entities_of src file prev n = Ok [e]
    /\ n_type e = "ClassInstanceExpr"
    /\ n_name e = fst (new_spec src n)
    /\ n_new e = Some (new_spec src n).
Proof. exact new_decoded. Qed.
Print Assumptions C06_new.

(* control statements: the entity carries exactly the specified parts *)
Theorem C06_if : forall src file prev n, if_shape n = true ->
  entities_of src file prev n = Ok [stmt_entity "ifstmt" "IfStmt" src n file (if_spec src n)].
Proof. exact if_decoded. Qed.
Print Assumptions C06_if.
Theorem C06_while : forall src file prev n, while_shape n = true ->
  entities_of src file prev n = Ok [stmt_entity "while_stmt" "WhileStmt" src n file (while_spec src n)].
Proof. exact while_decoded. Qed.
Print Assumptions C06_while.
Theorem C06_for : forall src file prev n, for_shape n = true ->
  entities_of src file prev n = Ok [stmt_entity "for_stmt" "ForStmt" src n file (for_spec src n)].
Proof. exact for_decoded. Qed.
Print Assumptions C06_for.
Theorem C06_break : forall src file prev n, break_shape n = true ->
  entities_of src file prev n = Ok [stmt_entity "breakstmt" "BreakStmt" src n file (break_spec src n)].
Proof. exact break_decoded. Qed.
Print Assumptions C06_break.
Theorem C06_continue : forall src file prev n, continue_shape n = true ->
  entities_of src file prev n = Ok [stmt_entity "continuestmt" "ContinueStmt" src n file (continue_spec src n)].
Proof. exact continue_decoded. Qed.
Print Assumptions C06_continue.
Theorem C06_yield : forall src file prev n, yield_shape n = true ->
  entities_of src file prev n = Ok [stmt_entity "yield" "YieldStmt" src n file (yield_spec src n)].
Proof. exact yield_decoded. Qed.
Print Assumptions C06_yield.
Theorem C06_assert : forall src file prev n, assert_shape n = true ->
  entities_of src file prev n = Ok [stmt_entity "assert" "AssertStmt" src n file (assert_spec src n)].
Proof. exact assert_decoded. Qed.
Print Assumptions C06_assert.
Theorem C06_return : forall src file prev n, return_shape n = true ->
  entities_of src file prev n = Ok [stmt_entity "return" "ReturnStmt" src n file (return_spec src n)].
Proof. exact return_decoded. Qed.
Print Assumptions C06_return.
Theorem C06_do : forall src file prev n, do_shape n = true ->
  entities_of src file prev n = Ok [stmt_entity "dowhile_stmt" "DoStmt" src n file (do_spec src n)]
  /\ exists c, child_by_field n "condition" = Some c /\ do_spec src n = SDo (Some (content src c)).
Proof. exact do_decoded. Qed.
Print Assumptions C06_do.

(* a block's stored statement list is the source's statements in order, wrapped in the two brace
   tokens — defect D29 (known finding: TestParseBlockStatement pins it), stated exactly *)
Theorem C06_block_known_finding : forall src file prev n,
  block_shape n = true -> block_braces src n = true ->
  entities_of src file prev n = Ok [stmt_entity "block" "BlockStmt" src n file (block_spec src n)]
  /\ block_spec src n = SBlock (["{"] ++ List.map (content src) (named_parts n) ++ ["}"]).
Proof. exact block_stmts_with_braces. Qed.
Print Assumptions C06_block_known_finding.
