(* C07 — scan results are repeatable and independent of worker scheduling. *)
From CPF Require Import Base.Bytes Scan.Merge Scan.MergeFacts Scan.Pool Scan.PoolFacts Scan.PoolSkel Scan.SkelSem Scan.SkelAbs Scan.SkelSim Scan.SkelTerm Scan.SkelCompl.
From CPF.gen Require Import Tables.
From Coq Require Import List Permutation.
Import ListNotations.

(* (a) the merge: any two arrival orders of the same per-file graphs give the same entities and
   the same call links, provided no identity occurs in two per-file graphs (checked on every
   campaign project; before the repair D20 binary-expression identities violated it, see
   collect_order_matters) *)
Theorem C07_order_independent : forall (A E : Type) (ls ls' : list (lgraph A E)),
  keys_distinct A E ls -> Permutation ls ls' ->
  Permutation (fst (collect ls)) (fst (collect ls')) /\ Permutation (snd (collect ls)) (snd (collect ls')).
Proof. exact collect_order_independent. Qed.
Print Assumptions C07_order_independent.

(* (b) the worker-pool protocol of Initialize as a transition system, any number of files (0
   included), any number of workers, any set of unreadable files: no deadlock ... *)
Theorem C07_no_deadlock : forall files w readable s,
  reachable files w readable s -> main s <> Done -> exists s', step (length files) w readable s s'.
Proof. exact pool_progress. Qed.
Print Assumptions C07_no_deadlock.

(* ... every step decreases a natural-number measure: every run is finite under ANY scheduler *)
Theorem C07_terminates : forall (files : list file) w readable s s',
  step (length files) w readable s s' -> measure s' < measure s.
Proof. exact pool_variant. Qed.
Print Assumptions C07_terminates.

(* ... and at the end each readable file's graph has been merged exactly once *)
Theorem C07_delivers : forall files w readable s,
  1 <= w -> reachable files w readable s -> main s = Done ->
  Permutation (merged s) (filter readable files).
Proof. exact pool_delivers. Qed.
Print Assumptions C07_delivers.

(* ... once Initialize has returned the progress display has stopped for good, and nothing the caller
   can observe changes any more (before the repair "the progress display stops before the scan returns"
   the updater kept writing its clear-screen sequence into the caller's output) *)
Theorem C07_quiescent : forall files w readable s s',
  reachable files w readable s -> main s = Done ->
  star (length files) w readable s s' ->
  status s' = GExited /\ merged s' = merged s /\ main s' = Done.
Proof. exact pool_quiescent_forever. Qed.
Print Assumptions C07_quiescent.

(* (c) the transition system above is the one of the CURRENT source: the goroutines of graph.Initialize with
   their channel, wait-group and goroutine operations, as the translator extracts them from /repo on every
   run (gen/Tables.v), are statement for statement the program Scan/Pool.v models (Scan/PoolSkel.v) *)
Theorem C07_skeleton : pool_program = pool_program_modelled.
Proof. exact pool_program_matches. Qed.
Print Assumptions C07_skeleton.

(* (d) ... and the transition system is not only "the same program text": under a generic small-step semantics
   of goroutines, buffered channels, close, range, select, wait groups and deferred closes (Scan/SkelSem.v)
   every execution of the EXTRACTED program, for any list of files and any assignment of read / parse
   failures, is step for step an execution of the transition system above (silent steps aside) ... *)
Theorem C07_program_refines : forall (files : list nat) (fails : bytes -> nat -> bool) s s',
  sreach files fails s -> In s' (sk_steps pool_program files fails s) ->
  abs files 5 s' = abs files 5 s \/
  step (length files) 5 (SkelSim.readable fails) (abs files 5 s) (abs files 5 s').
Proof. exact skel_simulates_pool_extracted. Qed.
Print Assumptions C07_program_refines.

(* ... no execution sends on or closes a closed channel or drives the wait group below zero ... *)
Theorem C07_program_no_panic : forall (files : list nat) (fails : bytes -> nat -> bool) s,
  sreach files fails s -> s_panic s = false.
Proof. exact skel_no_panic. Qed.
Print Assumptions C07_program_no_panic.

(* ... and whenever no goroutine of the program can move, every goroutine has returned, the graphs merged are
   those of the readable files (each once), every file was merged or skipped, and the arrival order is one
   a five-place reorder buffer allows: whatever the scheduler did *)
Theorem C07_program_result : forall (files : list nat) (fails : bytes -> nat -> bool) s,
  sreach files fails s -> sk_steps pool_program_modelled files fails s = [] ->
  finished s = true /\
  Permutation (s_merged s) (filter (SkelSim.readable fails) files) /\
  Permutation files (s_merged s ++ s_skipped s) /\
  buffered 5 [] (filter (SkelSim.readable fails) files) (s_merged s).
Proof. exact skel_stuck_result. Qed.
Print Assumptions C07_program_result.

(* ... every step of the program decreases a natural-number measure (10 x the measure of the abstract state +
   the statements each goroutine still has before it): no execution is infinite, whatever the scheduler does,
   and none is longer than 142 n + 257 steps for n files *)
Theorem C07_program_terminates : forall (files : list nat) (fails : bytes -> nat -> bool) s s',
  sreach files fails s -> sstep files fails s s' -> sk_measure files s' < sk_measure files s.
Proof. exact skel_variant. Qed.
Print Assumptions C07_program_terminates.

Theorem C07_program_run_length : forall (files : list nat) (fails : bytes -> nat -> bool) k s,
  srun files fails k (sk_init pool_program_modelled) s -> k <= 142 * length files + 257.
Proof. exact skel_run_length_bound. Qed.
Print Assumptions C07_program_run_length.

(* ... and the transition system has nothing the program cannot do: its reachable states are exactly the
   abstractions of the program's reachable configurations, and each of its transitions is the image of a run
   of the program (per configuration this needs the status updater not to have committed to returning:
   SkelCompl.skel_completeness_counterexample is the machine-checked witness) *)
Theorem C07_program_image_exact : forall (files : list nat) (fails : bytes -> nat -> bool) a,
  reachable files 5 (SkelSim.readable fails) a <-> exists s, sreach files fails s /\ abs files 5 s = a.
Proof. exact skel_image_exact. Qed.
Print Assumptions C07_program_image_exact.

Theorem C07_program_covers : forall (files : list nat) (fails : bytes -> nat -> bool) a t,
  reachable files 5 (SkelSim.readable fails) a -> step (length files) 5 (SkelSim.readable fails) a t ->
  exists s s', sreach files fails s /\ sruns files fails s s' /\ abs files 5 s = a /\ abs files 5 s' = t.
Proof. exact skel_covers_transitions. Qed.
Print Assumptions C07_program_covers.
