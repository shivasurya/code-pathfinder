(* C03 — every occurrence of a supported construct is represented exactly once, nothing else is.
   Model: Scan/Build.v (tied to graph/construct.go by the correspondence check on every CST). *)
From CPF Require Import Base.Bytes Base.BytesFacts Scan.Cst Scan.Build Scan.BuildFacts.
Open Scope bs_scope.

(* The traversal creates, for the nodes of the tree in pre-order, exactly the entities their CST
   types stand for (kinds_of: one per supported construct, two for a binary expression with a
   known operator, none for anything else) — no occurrence is skipped, nothing is invented —
   and every one of them is derived from its node (file, text, line).  When the identities of
   these entities are pairwise distinct, the graph holds exactly them, once each. *)
Theorem C03_census : forall path src t g,
  build_file path src t = Ok g ->
  exists es,
    census src path None t = Ok es
    /\ List.map n_type es = flat_map (kinds_of src) (cst_nodes t)
    /\ Forall (fun e => exists c, In c (cst_nodes t) /\ derived src path c e) es
    /\ (NoDup (List.map n_idpre es) -> Forall2 same_but_access (List.map snd (g_nodes g)) es).
Proof. exact build_file_census. Qed.
Print Assumptions C03_census.

(* Without the side condition the statement is false of the (faithful) model: two occurrences of
   `a>b` in one file share the identity "comp_expression<file>NUL<text>" and the later insert
   overwrites the earlier.  (Known finding D19: pinned by TestBuildGraphFromAST.)
   The tree below is the CST of   x(a>b,a>b)   reduced to its binary expressions. *)
Definition c03_leaf (ty : bytes) (f : option bytes) (sb eb : N) : cst := Cst ty true false f sb eb 0 sb [].
Definition c03_bin (sb : N) : cst :=
  Cst "binary_expression" true false None sb (sb + 3) 0 sb
    [c03_leaf "identifier" (Some "left") sb (sb + 1);
     Cst ">" false false (Some "operator") (sb + 1) (sb + 2) 0 (sb + 1) [];
     c03_leaf "identifier" (Some "right") (sb + 2) (sb + 3)].
Definition c03_tree : cst := Cst "argument_list" true false None 1 10 0 1 [c03_bin 2; c03_bin 6].
Definition c03_src : bytes := "x(a>b,a>b)".

Theorem C03_census_refuted :
  exists g es, build_file "A.java" c03_src c03_tree = Ok g
            /\ census c03_src "A.java" None c03_tree = Ok es
            /\ cst_wfb c03_src c03_tree = true
            /\ length es = 4 /\ length (g_nodes g) = 2.
Proof. eexists. eexists. repeat split; vm_compute; reflexivity. Qed.
Print Assumptions C03_census_refuted.
