(* C02 — no spurious or duplicated matches. *)
From CPF Require Import Engine.EvalFacts Engine.Query Engine.QueryFacts.

(* every reported combination consists of entities of the graph, of the FROM kinds in FROM order,
   and makes the condition true *)
Theorem C02_sound : forall q g t,
  In t (results q g) ->
  Forall2 (fun n ka => n_type n = fst ka /\ In n g) t (q_from q) /\ accepted q t = Accept.
Proof. intros q g t. now rewrite results_iff, candidates_iff. Qed.
Print Assumptions C02_sound.

(* ... true in the sense of the specification *)
Theorem C02_sound_spec : forall q g,
  wf_query q = true ->
  (forall t, In t (candidates q g) -> spec_accepted q t <> Unknown /\ static_ok q t) ->
  results q g = spec_results q g.
Proof. exact results_refine_spec. Qed.
Print Assumptions C02_sound_spec.

(* each qualifying combination exactly once (entities of a graph are pairwise distinct) *)
Theorem C02_nodup : forall q g, NoDup g -> NoDup (results q g).
Proof. exact results_nodup. Qed.
Print Assumptions C02_nodup.

(* without WHERE: exactly the cross product of the requested kinds, |k1| * |k2| * ... combinations *)
Theorem C02_cross_product : forall q g,
  q_where q = None ->
  results q g = candidates q g
  /\ length (candidates q g) = fold_right (fun '(k, _) acc => length (nodes_of_kind g k) * acc) 1 (q_from q)
  /\ (forall t, In t (candidates q g) <-> Forall2 (fun n ka => n_type n = fst ka /\ In n g) t (q_from q)).
Proof.
  intros q g H. split; [apply results_no_where; exact H|]. split; [apply candidates_count|].
  intro t. apply candidates_iff.
Qed.
Print Assumptions C02_cross_product.

(* the evaluator model the statements above are about never leaves the range of expr-lang's 64-bit integers: at the
   border (a literal beyond it, a sum or product or negation that would wrap around in Go) it answers OutOfFragment,
   and such queries are excluded by the hypotheses instead of being judged by arithmetic the engine does not do *)
Theorem C02_integers_stay_64bit : forall env e z, eval env e = Val (VI z) -> in_int64 z = true.
Proof. exact eval_int_range. Qed.
Print Assumptions C02_integers_stay_64bit.
